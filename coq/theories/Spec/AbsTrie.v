(* The abstract routing map of Model/Registry.v, re-stated over arbitrary types of nodes, verbs and
   methods with boolean equalities: a finite map from binding keys (node, verb) to methods, the
   distinguished verb [star] being the kind "*".  [a_find], [a_lookup], [a_add], [a_add_all],
   [a_add_rule], [a_add_rules], [a_del] are word-for-word copies of Registry.t_find ... t_del;
   [a_append] is the effect of Registry.append_handler on the map, [a_register] the method loop of
   Registry.process.
   [a_add_loose] is a looser duplicate check: refuse iff a_lookup finds another method, "already
   registered" iff it finds this one.  It departs from larking/rules.go in two ways
   (RefineProofs.RefineExample.refine_add_refuted, refine_add_state_refuted). *)
From Larking Require Import Base.GoSem.
From Larking Require Model.Registry.

Section AbsTrie.
Variables Nd Vb M : Type.
Variable nd_eqb : Nd -> Nd -> bool.
Variable vb_eqb : Vb -> Vb -> bool.
Variable m_eqb : M -> M -> bool.
Variable star : Vb.

Record akey := AKey { ak_node : Nd; ak_verb : Vb; ak_valid : bool }.
Record arule := ARule { ar_main : akey; ar_add : list akey }.

Definition atrie := list (Nd * Vb * M).
Definition a_find (t : atrie) (n : Nd) (v : Vb) : option M :=
  match find (fun e => nd_eqb (fst (fst e)) n && vb_eqb (snd (fst e)) v) t with
  | Some e => Some (snd e)
  | None => None
  end.
Definition a_lookup (t : atrie) (n : Nd) (v : Vb) : option M :=
  match a_find t n v with Some m => Some m | None => a_find t n star end.

Definition a_other (x : option M) (m : M) : bool :=
  match x with Some m' => negb (m_eqb m' m) | None => false end.
(* every binding of node n belongs to m *)
Definition a_owned (t : atrie) (n : Nd) (m : M) : bool :=
  forallb (fun e => negb (nd_eqb (fst (fst e)) n) || m_eqb (snd e) m) t.
Definition a_add (t : atrie) (k : akey) (m : M) : outcome (atrie * bool) :=
  if negb (ak_valid k) then Err EInvalid
  else if a_other (a_find t (ak_node k) star) m then Err EInvalid
  else if vb_eqb (ak_verb k) star then
    if negb (a_owned t (ak_node k) m) then Err EInvalid
    else match a_find t (ak_node k) star with
         | Some _ => Ok (t, false)
         | None => Ok ((ak_node k, ak_verb k, m) :: t, true)
         end
  else match a_find t (ak_node k) (ak_verb k) with
       | Some m' => if m_eqb m' m then Ok (t, false) else Err EInvalid
       | None => Ok ((ak_node k, ak_verb k, m) :: t, true)
       end.
(* the looser check: what the key resolves to decides *)
Definition a_add_loose (t : atrie) (k : akey) (m : M) : outcome (atrie * bool) :=
  if negb (ak_valid k) then Err EInvalid else
  match a_lookup t (ak_node k) (ak_verb k) with
  | Some m' => if m_eqb m' m then Ok (t, false) else Err EInvalid
  | None => Ok ((ak_node k, ak_verb k, m) :: t, true)
  end.
Fixpoint a_add_all (t : atrie) (ks : list akey) (m : M) : outcome atrie :=
  match ks with
  | [] => Ok t
  | k :: ks' => do r <- a_add t k m; a_add_all (fst r) ks' m
  end.
Definition a_add_rule (t : atrie) (r : arule) (m : M) : outcome atrie :=
  do x <- a_add t (ar_main r) m;
  a_add_all (fst x) (ar_add r) m.
Fixpoint a_add_rules (t : atrie) (rs : list arule) (m : M) : outcome atrie :=
  match rs with
  | [] => Ok t
  | r :: rs' => do t' <- a_add_rule t r m; a_add_rules t' rs' m
  end.
Definition a_del (t : atrie) (m : M) : atrie := filter (fun e => negb (m_eqb (snd e) m)) t.

(* a method as a registration sees it: its name, the key of the implicit rule, its rules *)
Record adecl := ADecl { ad_name : M; ad_implicit : akey; ad_rules : list arule }.
Definition a_append (t : atrie) (d : adecl) : outcome atrie :=
  do x <- a_add t (ad_implicit d) (ad_name d);
  a_add_rules (fst x) (ad_rules d) (ad_name d).
Fixpoint a_register (t : atrie) (ds : list adecl) : outcome atrie :=
  match ds with
  | [] => Ok t
  | d :: ds' => do t' <- a_append t d; a_register t' ds'
  end.
(* all or nothing, like the publication of the clone *)
Definition a_register_service (t : atrie) (ds : list adecl) : atrie :=
  match a_register t ds with Ok t' => t' | _ => t end.

(* removing from an optional method *)
Definition odel (x : M) (o : option M) : option M :=
  match o with Some m => if m_eqb m x then None else Some m | None => None end.
Definition oelse (a b : option M) : option M := match a with Some m => Some m | None => b end.

Hypothesis nd_eqb_eq : forall a b, nd_eqb a b = true <-> a = b.
Hypothesis vb_eqb_eq : forall a b, vb_eqb a b = true <-> a = b.
Hypothesis m_eqb_eq : forall a b, m_eqb a b = true <-> a = b.

Lemma nd_eqb_refl a : nd_eqb a a = true.
Proof. exact (eqb_refl_of _ nd_eqb_eq a). Qed.
Lemma vb_eqb_refl a : vb_eqb a a = true.
Proof. exact (eqb_refl_of _ vb_eqb_eq a). Qed.
Lemma m_eqb_refl a : m_eqb a a = true.
Proof. exact (eqb_refl_of _ m_eqb_eq a). Qed.
Lemma m_eqb_neq a b : m_eqb a b = false <-> a <> b.
Proof. exact (eqb_neq_of _ m_eqb_eq a b). Qed.

Definition keyb (n : Nd) (v : Vb) (e : Nd * Vb * M) : bool := nd_eqb (fst (fst e)) n && vb_eqb (snd (fst e)) v.
Lemma keyb_true n v e : keyb n v e = true <-> fst e = (n, v).
Proof.
  unfold keyb. destruct e as [[n0 v0] m0]. cbn [fst snd]. rewrite andb_true_iff, nd_eqb_eq, vb_eqb_eq.
  split; [intros [-> ->]; reflexivity|intros E; injection E as -> ->; auto].
Qed.

Lemma a_find_nil n v : a_find [] n v = None.
Proof. reflexivity. Qed.
Lemma a_find_cons n0 v0 m0 t n v :
  a_find ((n0, v0, m0) :: t) n v = if nd_eqb n0 n && vb_eqb v0 v then Some m0 else a_find t n v.
Proof. unfold a_find. cbn [find fst snd]. destruct (nd_eqb n0 n && vb_eqb v0 v); reflexivity. Qed.
Lemma a_find_cons_same n v m t : a_find ((n, v, m) :: t) n v = Some m.
Proof. now rewrite a_find_cons, nd_eqb_refl, vb_eqb_refl. Qed.
Lemma a_find_cons_other n0 v0 m0 t n v : (n0, v0) <> (n, v) -> a_find ((n0, v0, m0) :: t) n v = a_find t n v.
Proof.
  intros Hne. rewrite a_find_cons. destruct (nd_eqb n0 n && vb_eqb v0 v) eqn:E; [|reflexivity].
  apply andb_true_iff in E. destruct E as [E1 E2]. apply nd_eqb_eq in E1. apply vb_eqb_eq in E2. subst. contradiction.
Qed.

Lemma a_find_in t n v m : a_find t n v = Some m -> In (n, v, m) t.
Proof.
  unfold a_find. destruct (find _ t) as [e|] eqn:E; [|discriminate]. intros H. injection H as <-.
  apply find_some in E. destruct E as [Hin Hk]. change (keyb n v e = true) in Hk. apply keyb_true in Hk.
  destruct e as [[n0 v0] m0]. cbn [fst snd] in *. injection Hk as -> ->. exact Hin.
Qed.
Lemma a_find_none t n v : a_find t n v = None -> ~ In (n, v) (map fst t).
Proof.
  unfold a_find. destruct (find _ t) as [e|] eqn:E; [discriminate|]. intros _ Hin.
  apply in_map_iff in Hin. destruct Hin as (e & He & Hin). pose proof (find_none _ _ E e Hin) as Hk.
  change (keyb n v e = false) in Hk. assert (keyb n v e = true) by now apply keyb_true. congruence.
Qed.
Lemma a_in_find t n v m : NoDup (map fst t) -> In (n, v, m) t -> a_find t n v = Some m.
Proof.
  induction t as [|[[n0 v0] m0] t IH]; intros Hnd Hin; [contradiction|].
  cbn [map fst] in Hnd. inversion Hnd as [|x l Hnotin Hnd']; subst.
  destruct Hin as [E|Hin].
  - injection E as -> -> ->. apply a_find_cons_same.
  - rewrite a_find_cons_other; [now apply IH|]. intros E. injection E as -> ->. apply Hnotin.
    apply in_map_iff. exists (n, v, m). auto.
Qed.

Lemma a_other_false x m : a_other x m = false <-> forall m', x = Some m' -> m' = m.
Proof.
  unfold a_other. destruct x as [m0|].
  - rewrite negb_false_iff, m_eqb_eq. split; [intros -> m' H; now injection H|auto].
  - split; [intros _ m' H; discriminate|reflexivity].
Qed.
Lemma a_owned_true t n m : a_owned t n m = true <-> forall v m', In (n, v, m') t -> m' = m.
Proof.
  unfold a_owned. rewrite forallb_forall. split.
  - intros H v m' Hin. specialize (H _ Hin). cbn [fst snd] in H. rewrite nd_eqb_refl in H. now apply m_eqb_eq in H.
  - intros H [[n0 v0] m0] Hin. cbn [fst snd]. destruct (nd_eqb n0 n) eqn:Q; [|reflexivity].
    apply nd_eqb_eq in Q. subst n0. cbn [negb orb]. apply m_eqb_eq. eauto.
Qed.
Lemma a_add_inv t k m t' fl : a_add t k m = Ok (t', fl) ->
  ak_valid k = true /\ a_other (a_find t (ak_node k) star) m = false /\
  (ak_verb k = star -> a_owned t (ak_node k) m = true) /\
  ((fl = false /\ t' = t /\ a_find t (ak_node k) (ak_verb k) = Some m) \/
   (fl = true /\ t' = (ak_node k, ak_verb k, m) :: t /\ a_find t (ak_node k) (ak_verb k) = None)).
Proof.
  unfold a_add. destruct (ak_valid k); cbn [negb]; [|discriminate].
  destruct (a_other (a_find t (ak_node k) star) m) eqn:Eo; [discriminate|].
  intro H. split; [reflexivity|]. split; [reflexivity|]. revert H.
  destruct (vb_eqb (ak_verb k) star) eqn:Ev.
  - apply vb_eqb_eq in Ev. rewrite Ev. destruct (a_owned t (ak_node k) m); cbn [negb]; [|discriminate].
    destruct (a_find t (ak_node k) star) as [m0|] eqn:Ef; intro H; injection H as <- <-; (split; [reflexivity|]); [left|right; auto].
    repeat split. f_equal. now apply (proj1 (a_other_false _ _) Eo).
  - assert (Hne : ak_verb k <> star) by (intro Q; apply vb_eqb_eq in Q; congruence).
    destruct (a_find t (ak_node k) (ak_verb k)) as [m0|] eqn:Ef.
    + destruct (m_eqb m0 m) eqn:Em; [|discriminate]. apply m_eqb_eq in Em. subst m0. intro H; injection H as <- <-.
      split; [intro; contradiction|]. left. auto.
    + intro H; injection H as <- <-. split; [intro; contradiction|]. right. auto.
Qed.
Lemma a_add_ok t k m :
  is_ok (a_add t k m) =
  ak_valid k && negb (a_other (a_find t (ak_node k) star) m) &&
  (if vb_eqb (ak_verb k) star then a_owned t (ak_node k) m else negb (a_other (a_find t (ak_node k) (ak_verb k)) m)).
Proof.
  unfold a_add. destruct (ak_valid k); cbn [negb andb]; [|reflexivity].
  destruct (a_other (a_find t (ak_node k) star) m); cbn [negb andb]; [reflexivity|].
  destruct (vb_eqb (ak_verb k) star).
  - destruct (a_owned t (ak_node k) m); cbn [negb]; [|reflexivity]. destruct (a_find t (ak_node k) star); reflexivity.
  - destruct (a_find t (ak_node k) (ak_verb k)) as [m'|]; cbn [a_other]; [|reflexivity]. destruct (m_eqb m' m); reflexivity.
Qed.
Lemma a_add_err t k m : match a_add t k m with Ok _ => True | Err e => e = EInvalid | _ => False end.
Proof.
  unfold a_add. destruct (negb (ak_valid k)); [reflexivity|]. destruct (a_other _ m); [reflexivity|].
  destruct (vb_eqb (ak_verb k) star).
  - destruct (negb (a_owned t (ak_node k) m)); [reflexivity|]. destruct (a_find t (ak_node k) star); exact I.
  - destruct (a_find t (ak_node k) (ak_verb k)) as [m'|]; [|exact I]. destruct (m_eqb m' m); [exact I|reflexivity].
Qed.
Lemma a_add_invalid t k m : ak_valid k = false -> a_add t k m = Err EInvalid.
Proof. intros H. unfold a_add. now rewrite H. Qed.

Lemma a_lookup_none_find t n v : a_lookup t n v = None -> a_find t n v = None.
Proof. unfold a_lookup. destruct (a_find t n v); [discriminate|reflexivity]. Qed.
Lemma a_add_nodup t k m t' fl : a_add t k m = Ok (t', fl) -> NoDup (map fst t) -> NoDup (map fst t').
Proof.
  intros H Hnd. destruct (a_add_inv _ _ _ _ _ H) as (_ & _ & _ & [(_ & -> & _)|(_ & -> & Hl)]); [exact Hnd|].
  cbn [map fst]. constructor; [|exact Hnd]. now apply a_find_none.
Qed.
Lemma a_del_nodup t x : NoDup (map fst t) -> NoDup (map fst (a_del t x)).
Proof. apply NoDup_map_filter. Qed.
Lemma a_del_in t x e : In e (a_del t x) <-> In e t /\ snd e <> x.
Proof. unfold a_del. rewrite filter_In, negb_true_iff, m_eqb_neq. tauto. Qed.

Lemma a_add_all_nodup ks : forall t m t', a_add_all t ks m = Ok t' -> NoDup (map fst t) -> NoDup (map fst t').
Proof.
  induction ks as [|k ks IH]; intros t m t' H Hnd; cbn [a_add_all] in H; [now injection H as <-|].
  apply bind_ok in H. destruct H as ([t1 fl] & E & H). exact (IH _ _ _ H (a_add_nodup _ _ _ _ _ E Hnd)).
Qed.
Lemma a_add_rule_nodup t r m t' : a_add_rule t r m = Ok t' -> NoDup (map fst t) -> NoDup (map fst t').
Proof.
  intros H Hnd. apply bind_ok in H. destruct H as ([t1 fl] & E & H).
  exact (a_add_all_nodup _ _ _ _ H (a_add_nodup _ _ _ _ _ E Hnd)).
Qed.
Lemma a_add_rules_nodup rs : forall t m t', a_add_rules t rs m = Ok t' -> NoDup (map fst t) -> NoDup (map fst t').
Proof.
  induction rs as [|r rs IH]; intros t m t' H Hnd; cbn [a_add_rules] in H; [now injection H as <-|].
  apply bind_ok in H. destruct H as (t1 & E & H). exact (IH _ _ _ H (a_add_rule_nodup _ _ _ _ E Hnd)).
Qed.

Lemma a_find_del t x n v : NoDup (map fst t) -> a_find (a_del t x) n v = odel x (a_find t n v).
Proof.
  induction t as [|[[n0 v0] m0] t IH]; intros Hnd; [reflexivity|].
  cbn [map fst] in Hnd. inversion Hnd as [|y l Hnotin Hnd']; subst.
  unfold a_del. cbn [filter snd]. fold (a_del t x). rewrite a_find_cons.
  destruct (nd_eqb n0 n && vb_eqb v0 v) eqn:Ek.
  - apply andb_true_iff in Ek. destruct Ek as [E1 E2]. apply nd_eqb_eq in E1. apply vb_eqb_eq in E2. subst n0 v0.
    cbn [odel]. destruct (m_eqb m0 x) eqn:Em; cbn [negb].
    + rewrite (IH Hnd'). destruct (a_find t n v) as [m1|] eqn:Ef; [|reflexivity].
      exfalso. apply Hnotin. apply in_map_iff. exists (n, v, m1). split; [reflexivity|now apply a_find_in].
    + apply a_find_cons_same.
  - destruct (m_eqb m0 x); cbn [negb]; [now apply IH|]. rewrite a_find_cons, Ek. now apply IH.
Qed.

(* the law of "own binding, else the '*' binding" that makes it survive del *)
Lemma oelse_odel x (av ast cv cst : option M) :
  ast = cst -> oelse av ast = oelse cv cst -> oelse (odel x av) (odel x ast) = oelse (odel x cv) (odel x cst).
Proof.
  intros <-. destruct av as [a|], cv as [c|], ast as [s|]; cbn [oelse odel]; intros H;
    try discriminate; try (injection H as ->); repeat (destruct (m_eqb _ x)); reflexivity.
Qed.

Lemma a_lookup_oelse t n v : a_lookup t n v = oelse (a_find t n v) (a_find t n star).
Proof. reflexivity. Qed.
Lemma a_lookup_del t x n v : NoDup (map fst t) ->
  a_lookup (a_del t x) n v = oelse (odel x (a_find t n v)) (odel x (a_find t n star)).
Proof. intros Hnd. unfold a_lookup. now rewrite !a_find_del. Qed.
Lemma a_lookup_star t n : a_lookup t n star = a_find t n star.
Proof. unfold a_lookup. destruct (a_find t n star); reflexivity. Qed.

End AbsTrie.

Arguments AKey {Nd Vb}.
Arguments ak_node {Nd Vb}.
Arguments ak_verb {Nd Vb}.
Arguments ak_valid {Nd Vb}.
Arguments ARule {Nd Vb}.
Arguments ar_main {Nd Vb}.
Arguments ar_add {Nd Vb}.
Arguments ADecl {Nd Vb M}.
Arguments ad_name {Nd Vb M}.
Arguments ad_implicit {Nd Vb M}.
Arguments ad_rules {Nd Vb M}.
Arguments odel {M}.
Arguments oelse {M}.

(* Model/Registry.v is the instance at nat *)
Module RegistryInstance.
Definition key_of (k : Registry.bkey) : akey nat nat := AKey (Registry.knode k) (Registry.kverb k) (Registry.kvalid k).
Definition rule_of (r : Registry.rule) : arule nat nat := ARule (key_of (Registry.rmain r)) (map key_of (Registry.radd r)).
Definition decl_of (d : Registry.mdesc) : adecl nat nat nat :=
  ADecl (Registry.mname d) (key_of (Registry.BKey (Registry.mnode d) 0 true)) (map rule_of (Registry.mrules d)).

Notation nfind := (a_find nat nat nat Nat.eqb Nat.eqb).
Notation nlookup := (a_lookup nat nat nat Nat.eqb Nat.eqb 0).
Notation nadd := (a_add nat nat nat Nat.eqb Nat.eqb Nat.eqb 0).
Notation nadd_all := (a_add_all nat nat nat Nat.eqb Nat.eqb Nat.eqb 0).
Notation nadd_rule := (a_add_rule nat nat nat Nat.eqb Nat.eqb Nat.eqb 0).
Notation nadd_rules := (a_add_rules nat nat nat Nat.eqb Nat.eqb Nat.eqb 0).
Notation ndel := (a_del nat nat nat Nat.eqb).
Notation nappend := (a_append nat nat nat Nat.eqb Nat.eqb Nat.eqb 0).
Notation nregister := (a_register nat nat nat Nat.eqb Nat.eqb Nat.eqb 0).

Lemma t_find_instance t n v : Registry.t_find t n v = nfind t n v.
Proof. reflexivity. Qed.
Lemma t_lookup_instance t n v : Registry.t_lookup t n v = nlookup t n v.
Proof. reflexivity. Qed.
Lemma t_add_instance t k m : Registry.t_add t k m = nadd t (key_of k) m.
Proof. reflexivity. Qed.
Lemma t_add_all_instance ks : forall t m, Registry.t_add_all t ks m = nadd_all t (map key_of ks) m.
Proof.
  induction ks as [|k ks IH]; intros t m; [reflexivity|].
  cbn [Registry.t_add_all a_add_all map]. rewrite t_add_instance. apply bind_ext. intro r. apply IH.
Qed.
Lemma t_add_rule_instance t r m : Registry.t_add_rule t r m = nadd_rule t (rule_of r) m.
Proof.
  unfold Registry.t_add_rule, a_add_rule. rewrite t_add_instance. cbn [ar_main ar_add rule_of].
  apply bind_ext. intro x. apply t_add_all_instance.
Qed.
Lemma t_add_rules_instance rs : forall t m, Registry.t_add_rules t rs m = nadd_rules t (map rule_of rs) m.
Proof.
  induction rs as [|r rs IH]; intros t m; [reflexivity|].
  cbn [Registry.t_add_rules a_add_rules map]. rewrite t_add_rule_instance. apply bind_ext. intro t1. apply IH.
Qed.
Lemma t_del_instance t m : Registry.t_del t m = ndel t m.
Proof. reflexivity. Qed.

(* appendHandler and the method loop, as far as the routing map goes *)
Lemma append_handler_instance s d h :
  (do s' <- Registry.append_handler s d h; Ok (Registry.spath s')) = nappend (Registry.spath s) (decl_of d).
Proof.
  unfold Registry.append_handler, a_append. rewrite t_add_instance. cbn [ad_implicit ad_name ad_rules decl_of].
  pose proof (a_add_err nat nat nat Nat.eqb Nat.eqb Nat.eqb 0 (Registry.spath s)
                (key_of (Registry.BKey (Registry.mnode d) 0 true)) (Registry.mname d)) as He.
  destruct (nadd (Registry.spath s) (key_of (Registry.BKey (Registry.mnode d) 0 true)) (Registry.mname d)) as [x|e| |];
    cbn [bind]; try contradiction; [|reflexivity].
  rewrite t_add_rules_instance. destruct (nadd_rules _ _ _); reflexivity.
Qed.
Lemma process_instance ds : forall s o next acc,
  (do r <- Registry.process s o ds next acc; Ok (Registry.spath (fst r))) = nregister (Registry.spath s) (map decl_of ds).
Proof.
  induction ds as [|d ds IH]; intros s o next acc; [reflexivity|].
  cbn [Registry.process a_register map].
  rewrite <- (append_handler_instance s d (Registry.Handler next o (Registry.mname d))), !bind_assoc.
  apply bind_ext. intro s'. apply IH.
Qed.

(* registerService as Registry.step sees it: the published map afterwards is a_register_service *)
Lemma step_reglocal_instance m l ds :
  Registry.spath (Registry.clone (Registry.published (fst (Registry.step m (Registry.RegLocal l ds))))) =
  a_register_service nat nat nat Nat.eqb Nat.eqb Nat.eqb 0
    (Registry.spath (Registry.clone (Registry.published m))) (map decl_of ds).
Proof.
  unfold Registry.step, a_register_service.
  rewrite <- (process_instance ds (Registry.clone (Registry.published m)) (Registry.OLocal l) (Registry.fresh m) []).
  destruct (Registry.process _ _ ds _ _); reflexivity.
Qed.
End RegistryInstance.
