(* Go semantics layer shared by all models: bytes, outcomes, slices, integer wrap. *)
From Coq Require Export List NArith ZArith Bool Arith Lia.
From Coq Require Export ZifyBool ZifyNat ZifyN.
Export ListNotations.

Notation byte := N (only parsing).
Notation bytes := (list N) (only parsing).
Definition wfb (b : byte) : Prop := (b < 256)%N.

(* Error classes (never error text). *)
Inductive err :=
| EEOF | EUnexpectedEOF | ETooLarge | EVarint | EUnbalanced
| ENotFound | EMethod | EInvalid | EUnimplemented | EInternal | EOther.

Definition err_eqb (a b : err) : bool :=
  match a, b with
  | EEOF, EEOF | EUnexpectedEOF, EUnexpectedEOF | ETooLarge, ETooLarge | EVarint, EVarint
  | EUnbalanced, EUnbalanced | ENotFound, ENotFound | EMethod, EMethod | EInvalid, EInvalid
  | EUnimplemented, EUnimplemented | EInternal, EInternal | EOther, EOther => true
  | _, _ => false
  end.

(* Go run-time failures are values of the model, not totalised away. *)
Inductive pcode := PSlice | PIndex | PNil | PExplicit | PKind.

Inductive outcome (A : Type) := Ok (a : A) | Err (e : err) | Panic (p : pcode) | OutOfFuel.
Arguments Ok {A}. Arguments Err {A}. Arguments Panic {A}. Arguments OutOfFuel {A}.

Definition bind {A B} (x : outcome A) (f : A -> outcome B) : outcome B :=
  match x with Ok a => f a | Err e => Err e | Panic p => Panic p | OutOfFuel => OutOfFuel end.
Notation "'do' x <- a ; b" := (bind a (fun x => b)) (at level 200, x pattern, a at level 100, b at level 200).

Definition is_ok {A} (x : outcome A) := match x with Ok _ => true | _ => false end.
Definition is_panic {A} (x : outcome A) := match x with Panic _ => true | _ => false end.
Definition no_crash {A} (x : outcome A) : Prop :=
  match x with Panic _ | OutOfFuel => False | _ => True end.

(* s[i:] and s[i:j] with Go's bounds checks *)
Definition slice_from {A} (i : nat) (s : list A) : outcome (list A) :=
  if Nat.leb i (length s) then Ok (skipn i s) else Panic PSlice.
Definition slice {A} (i j : nat) (s : list A) : outcome (list A) :=
  if Nat.leb i j && Nat.leb j (length s) then Ok (firstn (j - i) (skipn i s)) else Panic PSlice.
Definition index {A} (i : nat) (s : list A) : outcome A :=
  match nth_error s i with Some x => Ok x | None => Panic PIndex end.

(* int(x) of a uint64 on a 64-bit platform *)
Definition wrap64 (x : Z) : Z :=
  let y := (x mod 2^64)%Z in if (y <? 2^63)%Z then y else (y - 2^64)%Z.
Definition u32 (x : Z) : Z := (x mod 2^32)%Z.

Definition is_nil {A} (l : list A) := match l with [] => true | _ => false end.

Fixpoint list_eqb {A} (eqb : A -> A -> bool) (a b : list A) : bool :=
  match a, b with
  | [], [] => true
  | x :: a', y :: b' => eqb x y && list_eqb eqb a' b'
  | _, _ => false
  end.
Definition bytes_eqb := list_eqb N.eqb.

Lemma list_eqb_eq {A} (eqb : A -> A -> bool) :
  (forall x y, eqb x y = true <-> x = y) -> forall a b, list_eqb eqb a b = true <-> a = b.
Proof.
  intros H. induction a as [|x a IH]; destruct b as [|y b]; cbn; split; intros E; try congruence; try discriminate.
  - apply andb_true_iff in E. destruct E as [E1 E2]. apply H in E1. apply IH in E2. congruence.
  - inversion E; subst. apply andb_true_iff. split; [apply H|apply IH]; reflexivity.
Qed.
Lemma bytes_eqb_eq a b : bytes_eqb a b = true <-> a = b.
Proof. apply list_eqb_eq. intros; apply N.eqb_eq. Qed.

Lemma skipn_app_len {A} (l r : list A) k : skipn (length l + k) (l ++ r) = skipn k r.
Proof. induction l as [|a l IH]; cbn; auto. Qed.
Lemma firstn_app_len {A} (l r : list A) k : firstn (length l + k) (l ++ r) = l ++ firstn k r.
Proof. induction l as [|a l IH]; cbn; auto. now rewrite IH. Qed.

Lemma list_eqb_refl {A} (eqb : A -> A -> bool) : (forall x, eqb x x = true) -> forall l, list_eqb eqb l l = true.
Proof. intros H. induction l as [|x l IH]; cbn; [reflexivity|]. now rewrite H, IH. Qed.

(* what follows for any boolean test that decides equality *)
Lemma eqb_refl_of {A} (eqb : A -> A -> bool) :
  (forall a b, eqb a b = true <-> a = b) -> forall a, eqb a a = true.
Proof. intros H a. now apply H. Qed.
Lemma eqb_neq_of {A} (eqb : A -> A -> bool) :
  (forall a b, eqb a b = true <-> a = b) -> forall a b, eqb a b = false <-> a <> b.
Proof. intros H a b. rewrite <- H. now destruct (eqb a b). Qed.
Lemma eqb_sym_of {A} (eqb : A -> A -> bool) :
  (forall a b, eqb a b = true <-> a = b) -> forall a b, eqb a b = eqb b a.
Proof. intros H a b. apply eq_true_iff_eq. rewrite !H. split; congruence. Qed.

Lemma bytes_eqb_refl a : bytes_eqb a a = true.
Proof. exact (eqb_refl_of _ bytes_eqb_eq a). Qed.
Lemma bytes_eqb_neq a b : bytes_eqb a b = false <-> a <> b.
Proof. exact (eqb_neq_of _ bytes_eqb_eq a b). Qed.

Lemma firstn_app_exact {A} (l r : list A) : firstn (length l) (l ++ r) = l.
Proof. rewrite <- (Nat.add_0_r (length l)), firstn_app_len. apply app_nil_r. Qed.
Lemma skipn_app_exact {A} (l r : list A) : skipn (length l) (l ++ r) = r.
Proof. rewrite <- (Nat.add_0_r (length l)). apply skipn_app_len. Qed.

Lemma firstn_app_le {A} (l x : list A) i : i <= length l -> firstn i (l ++ x) = firstn i l.
Proof. intros H. rewrite firstn_app, (proj2 (Nat.sub_0_le _ _) H). apply app_nil_r. Qed.
Lemma skipn_app_le {A} (l x : list A) i : i <= length l -> skipn i (l ++ x) = skipn i l ++ x.
Proof. intros H. now rewrite skipn_app, (proj2 (Nat.sub_0_le _ _) H). Qed.

Lemma existsb_false {A} (f : A -> bool) l : existsb f l = false <-> forall x, In x l -> f x = false.
Proof.
  rewrite <- not_true_iff_false, existsb_exists. split.
  - intros H x Hin. apply not_true_iff_false. eauto.
  - intros H (x & Hin & Hx). now rewrite (H x Hin) in Hx.
Qed.
Lemma existsb_eqb_In n l : existsb (N.eqb n) l = true <-> In n l.
Proof.
  rewrite existsb_exists. split; [intros [x [H E]]; apply N.eqb_eq in E; subst; exact H|].
  intros H. exists n. split; [exact H|apply N.eqb_refl].
Qed.
Lemma filter_all {A} (f : A -> bool) l : (forall x, In x l -> f x = true) -> filter f l = l.
Proof.
  induction l as [|a l IH]; intros H; cbn; auto.
  rewrite (H a (or_introl eq_refl)). f_equal. apply IH. intros x Hx. apply H. now right.
Qed.
Lemma filter_filter_and {A} (f g : A -> bool) l : filter f (filter g l) = filter (fun x => f x && g x) l.
Proof.
  induction l as [|a l IH]; [reflexivity|]. cbn [filter].
  destruct (g a); cbn [filter]; rewrite ?andb_true_r, ?andb_false_r; destruct (f a); rewrite IH; reflexivity.
Qed.

Lemma NoDup_snoc {A} (l : list A) a : NoDup l -> ~ In a l -> NoDup (l ++ [a]).
Proof.
  intros ND N. apply NoDup_Add with (a := a) (l := l); [|now constructor].
  rewrite <- (app_nil_r l) at 1. apply Add_app.
Qed.
Lemma NoDup_map_inj {A B} (f : A -> B) l a b : NoDup (map f l) -> In a l -> In b l -> f a = f b -> a = b.
Proof.
  induction l as [|x l IH]; cbn [map]; [intros _ []|].
  intro H. inversion H as [|? ? Hn Hd]; subst. intros [<-|Ha] [<-|Hb] E; auto.
  - exfalso. apply Hn. rewrite E. apply in_map. exact Hb.
  - exfalso. apply Hn. rewrite <- E. apply in_map. exact Ha.
Qed.
Lemma NoDup_map_filter {A B} (g : A -> B) f l : NoDup (map g l) -> NoDup (map g (filter f l)).
Proof.
  induction l as [|a l IH]; cbn [map filter]; intros H; [constructor|].
  inversion H as [|x l' Hnotin Hnd]; subst. destruct (f a); cbn [map]; auto.
  constructor; [|auto]. intros Hin. apply Hnotin. apply in_map_iff in Hin. destruct Hin as (z & E & Hz).
  apply filter_In in Hz. apply in_map_iff. exists z. tauto.
Qed.

(* a test with the equations of a prefix test over a boolean equality decides "is a prefix of" *)
Lemma prefix_test_spec {A} (eqb : A -> A -> bool) (pre : list A -> list A -> bool) :
  (forall a b, eqb a b = true <-> a = b) ->
  (forall l, pre [] l = true) -> (forall x p, pre (x :: p) [] = false) ->
  (forall x p y l, pre (x :: p) (y :: l) = eqb x y && pre p l) ->
  forall p l, pre p l = true <-> exists q, l = p ++ q.
Proof.
  intros He H0 H1 H2. induction p as [|a p IH]; intros l.
  - rewrite H0. split; [intros _; now exists l|reflexivity].
  - destruct l as [|b l]; [rewrite H1; split; [discriminate|intros [q H]; discriminate]|].
    rewrite H2, andb_true_iff, He, IH. split.
    + intros [-> [q ->]]. now exists q.
    + intros [q H]. inversion H; subst. eauto.
Qed.

Lemma slice_from_ok {A} n (l : list A) : n <= length l -> slice_from n l = Ok (skipn n l).
Proof. intros H. unfold slice_from. apply Nat.leb_le in H. now rewrite H. Qed.
Lemma slice0_ok {A} n (l : list A) : n <= length l -> slice 0 n l = Ok (firstn n l).
Proof.
  intros H. unfold slice. apply Nat.leb_le in H. rewrite H. cbn [Nat.leb andb skipn]. now rewrite Nat.sub_0_r.
Qed.

Lemma u32_range x : (0 <= u32 x < 2 ^ 32)%Z.
Proof. unfold u32. apply Z.mod_pos_bound. reflexivity. Qed.
Lemma u32_id x : (0 <= x < 2 ^ 32)%Z -> u32 x = x.
Proof. intros H. unfold u32. now apply Z.mod_small. Qed.
Lemma wrap64_small x : (0 <= x < 2 ^ 63)%Z -> wrap64 x = x.
Proof.
  intros H. unfold wrap64. rewrite Z.mod_small by lia.
  replace (x <? 2 ^ 63)%Z with true by lia. reflexivity.
Qed.

Lemma bind_ok {A B} (x : outcome A) (f : A -> outcome B) r :
  bind x f = Ok r -> exists a, x = Ok a /\ f a = Ok r.
Proof. destruct x; try discriminate. eauto. Qed.
Lemma bind_ext {A B} (x : outcome A) (f g : A -> outcome B) : (forall a, f a = g a) -> bind x f = bind x g.
Proof. intro H. destruct x; cbn [bind]; [apply H|reflexivity|reflexivity|reflexivity]. Qed.
Lemma bind_assoc {A B C} (x : outcome A) (f : A -> outcome B) (g : B -> outcome C) :
  bind (bind x f) g = bind x (fun a => bind (f a) g).
Proof. destruct x; reflexivity. Qed.
Lemma bind_no_crash {A B} (x : outcome A) (f : A -> outcome B) :
  no_crash x -> (forall a, x = Ok a -> no_crash (f a)) -> no_crash (bind x f).
Proof. destruct x; cbn; auto. Qed.

(* the four bytes of a big-endian uint32 give the number back *)
Lemma be32_inv n : (n < 2 ^ 32)%N ->
  ((n / 16777216) mod 256 * 16777216 + (n / 65536) mod 256 * 65536 + (n / 256) mod 256 * 256 + n mod 256 = n)%N.
Proof.
  intros H. change 65536%N with (256 * 256)%N. change 16777216%N with (256 * 256 * 256)%N.
  rewrite <- !N.div_div by discriminate.
  assert (Q : (n / 256 / 256 / 256 < 256)%N) by (repeat apply N.div_lt_upper_bound; try discriminate; exact H).
  rewrite (N.mod_small _ _ Q). clear H Q.
  pose proof (N.div_mod n 256) as D1. pose proof (N.div_mod (n / 256) 256) as D2.
  pose proof (N.div_mod (n / 256 / 256) 256) as D3.
  (* with the quotients as variables the equation is linear *)
  revert D3. generalize (n / 256 / 256 / 256)%N, ((n / 256 / 256) mod 256)%N.
  revert D2. generalize (n / 256 / 256)%N, ((n / 256) mod 256)%N.
  revert D1. generalize (n / 256)%N, (n mod 256)%N.
  intros. lia.
Qed.

(* no crash, and [P] of the value if there is one: the form in which totality goes through [bind] *)
Definition ok_all {A} (P : A -> Prop) (x : outcome A) : Prop :=
  match x with Ok a => P a | Err _ => True | _ => False end.
Lemma ok_all_bind {A B} (P : A -> Prop) (Q : B -> Prop) x (f : A -> outcome B) :
  ok_all P x -> (forall a, P a -> ok_all Q (f a)) -> ok_all Q (bind x f).
Proof. destruct x; cbn; auto. Qed.
Lemma ok_all_ok {A} (P : A -> Prop) x a : ok_all P x -> x = Ok a -> P a.
Proof. now intros H ->. Qed.
Lemma ok_all_impl {A} (P Q : A -> Prop) x : ok_all P x -> (forall a, P a -> Q a) -> ok_all Q x.
Proof. destruct x; cbn; auto. Qed.
Lemma ok_all_no_crash {A} (P : A -> Prop) x : ok_all P x <-> no_crash x /\ forall a, x = Ok a -> P a.
Proof.
  destruct x; cbn; split; try tauto.
  - intros H. split; [exact I|]. now intros b [= <-].
  - intros [_ H]. now apply H.
  - intros _. split; [exact I|discriminate].
Qed.
