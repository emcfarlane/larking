(* io.Reader as a scheduled source: the k-th Read returns min(room, sched_k, remaining) bytes,
   at least one when any remain; EOF arrives with the last bytes or on the next call. *)
From Larking Require Import Base.GoSem.

Record src := Src { rem : bytes; sched : list nat; eofWithData : bool }.

(* one Read(p) with len(p) = room *)
Definition read1 (room : nat) (s : src) : bytes * bool * src :=
  match rem s with
  | [] => ([], true, s)
  | _ =>
    let want := match sched s with [] => length (rem s) | k :: _ => Nat.max 1 k end in
    let k := Nat.min room want in
    let r' := skipn k (rem s) in
    (firstn k (rem s), eofWithData s && is_nil r', Src r' (tl (sched s)) (eofWithData s))
  end.

(* Read into spare capacity: capacity is not modelled (it only lowers a read size, which is
   another schedule), so the room is whatever remains. *)
Definition read_any (s : src) := read1 (length (rem s)) s.

Lemma read1_split room s ch e s' : read1 room s = (ch, e, s') -> ch ++ rem s' = rem s.
Proof.
  unfold read1. destruct (rem s) as [|x r] eqn:E; intros H; inversion H; subst; cbn [rem].
  - now rewrite E.
  - apply firstn_skipn.
Qed.

Lemma read1_progress room s ch e s' :
  0 < room -> read1 room s = (ch, e, s') -> rem s <> [] -> ch <> [].
Proof.
  unfold read1. destruct (rem s) as [|x r] eqn:E; intros Hr H Hne; [congruence|].
  inversion H; subst.
  assert (0 < Nat.min room (match sched s with [] => length (x :: r) | k :: _ => Nat.max 1 k end)).
  { destruct (sched s); cbn [length]; lia. }
  destruct (Nat.min room _) eqn:M; [lia|]. cbn [firstn]. discriminate.
Qed.

Lemma read1_len room s ch e s' : read1 room s = (ch, e, s') -> length ch <= room.
Proof.
  unfold read1. destruct (rem s); intros H; inversion H; subst; cbn [length]; [lia|].
  rewrite firstn_length. lia.
Qed.

Lemma read1_nil_eof room s ch e s' : read1 room s = (ch, e, s') -> rem s = [] -> ch = [] /\ e = true /\ s' = s.
Proof. unfold read1. intros H E. rewrite E in H. inversion H; auto. Qed.

(* EOF is only ever reported when nothing remains afterwards *)
Lemma read1_eof_rem room s ch s' : read1 room s = (ch, true, s') -> rem s' = [].
Proof.
  unfold read1. destruct (rem s) as [|x r] eqn:E; intros H; inversion H; subst; cbn [rem]; auto.
  match goal with H1 : _ && is_nil ?l = true |- _ => destruct l; [reflexivity|] end.
  rewrite andb_false_r in *. discriminate.
Qed.

Lemma read_any_progress s ch e s' : read_any s = (ch, e, s') -> rem s <> [] -> ch <> [].
Proof.
  unfold read_any. intros H Hne.
  assert (Hpos : 0 < length (rem s)) by (destruct (rem s); [congruence|cbn [length]; lia]).
  exact (read1_progress _ _ _ _ _ Hpos H Hne).
Qed.

Lemma read_any_len s ch e s' : read_any s = (ch, e, s') -> length (rem s') + length ch = length (rem s).
Proof. intros H. apply read1_split in H. rewrite <- H, app_length. lia. Qed.
(* a read that does not report EOF returns at least one byte *)
Lemma read_any_noeof_progress s ch s' : read_any s = (ch, false, s') -> ch <> [].
Proof.
  intros H. destruct (rem s) as [|x r] eqn:E.
  - apply read1_nil_eof in H; [|exact E]. now destruct H as (_ & ? & _).
  - eapply read_any_progress; eauto. congruence.
Qed.
