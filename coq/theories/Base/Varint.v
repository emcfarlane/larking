(* protowire varints: AppendVarint / ConsumeVarint for uint64. *)
From Larking Require Import Base.GoSem.
Local Open Scope N_scope.

Inductive vres := VOk (v : N) (n : nat) | VTrunc | VOverflow.

(* k = number of bytes still allowed (10 for uint64); the last allowed byte must be < 2 *)
Fixpoint cv (k : nat) (b : bytes) : vres :=
  match k with
  | O => VOverflow
  | S k' =>
    match b with
    | [] => VTrunc
    | x :: r =>
      if Nat.eqb k' 0 then (if x <? 2 then VOk x 1 else VOverflow)
      else if x <? 128 then VOk x 1
      else match cv k' r with
           | VOk v n => VOk (x - 128 + 128 * v) (S n)
           | e => e
           end
    end
  end.
Definition consume_varint (b : bytes) : vres := cv 10 b.

Fixpoint enc_f (k : nat) (v : N) : bytes :=
  match k with
  | O => []
  | S k' => if v <? 128 then [v] else (v mod 128 + 128) :: enc_f k' (v / 128)
  end.
Definition encode_varint (v : N) : bytes := enc_f 10 v.

Lemma cv_enc : forall k v r, (0 < k)%nat -> v < 2 * 128 ^ (N.of_nat k - 1) ->
  cv k (enc_f k v ++ r) = VOk v (length (enc_f k v)).
Proof.
  induction k as [|k IH]; intros v r Hk Hv; [lia|].
  cbn [enc_f cv]. destruct k as [|k'].
  - cbn in Hv. replace (v <? 128) with true by lia. cbn. replace (v <? 2) with true by lia. reflexivity.
  - destruct (v <? 128) eqn:E.
    + cbn [app Nat.eqb length]. rewrite E. reflexivity.
    + cbn [app Nat.eqb length].
      replace (v mod 128 + 128 <? 128) with false by lia.
      assert (Hd : v / 128 < 2 * 128 ^ (N.of_nat (S k') - 1)).
      { replace (N.of_nat (S (S k')) - 1) with (N.succ (N.of_nat (S k') - 1)) in Hv by lia.
        rewrite N.pow_succ_r' in Hv. apply N.div_lt_upper_bound; lia. }
      rewrite IH by (try lia; exact Hd).
      f_equal. pose proof (N.div_mod v 128). lia.
Qed.

Theorem consume_encode v r : v < 2 ^ 64 ->
  consume_varint (encode_varint v ++ r) = VOk v (length (encode_varint v)).
Proof.
  intros H. apply cv_enc; [lia|]. change (2 * 128 ^ (N.of_nat 10 - 1)) with (2 ^ 64). exact H.
Qed.

Lemma enc_f_len k v : (0 < k)%nat -> (1 <= length (enc_f k v) <= k)%nat.
Proof.
  revert v. induction k as [|k IH]; intros v Hk; [lia|]. cbn [enc_f].
  destruct (v <? 128); cbn [length]; [lia|]. destruct k as [|k']; [cbn; lia|].
  specialize (IH (v / 128)). lia.
Qed.

(* prefix stability: once decided on a prefix, the answer is the same on any extension *)
Lemma cv_prefix : forall k b x, cv k b <> VTrunc -> cv k (b ++ x) = cv k b.
Proof.
  induction k as [|k IH]; intros b x H; cbn [cv] in *; [reflexivity|].
  destruct b as [|y r]; [congruence|]. cbn [app].
  destruct (Nat.eqb k 0); [reflexivity|]. destruct (y <? 128); [reflexivity|].
  rewrite IH; [reflexivity|]. intros E. now rewrite E in H.
Qed.
Lemma cv_ok_len : forall k b v n, cv k b = VOk v n -> (1 <= n <= length b)%nat.
Proof.
  induction k as [|k IH]; intros b v n H; cbn [cv] in H; [discriminate|].
  destruct b as [|y r]; [discriminate|]. cbn [length].
  destruct (Nat.eqb k 0).
  - destruct (y <? 2); inversion H; subst. lia.
  - destruct (y <? 128); [inversion H; subst; lia|].
    destruct (cv k r) as [v' n'| |] eqn:E; try discriminate. inversion H; subst.
    specialize (IH _ _ _ E). lia.
Qed.
(* a truncated answer means every byte so far has the continuation bit and fewer than k bytes were seen *)
Lemma cv_trunc : forall k b, cv k b = VTrunc -> (length b < k)%nat /\ Forall (fun y => 128 <= y) b.
Proof.
  induction k as [|k IH]; intros b H; cbn [cv] in *; [discriminate|].
  destruct b as [|y r]; [cbn; split; [lia|constructor]|].
  destruct (Nat.eqb k 0) eqn:K.
  - destruct (y <? 2); discriminate.
  - destruct (y <? 128) eqn:Y; [discriminate|].
    destruct (cv k r) eqn:E; try discriminate. destruct (IH _ E) as [L F].
    cbn [length]. split; [lia|constructor; [cbn beta; lia|exact F]].
Qed.
Lemma cv_all_cont : forall k b, (length b < k)%nat -> Forall (fun y => 128 <= y) b -> cv k b = VTrunc.
Proof.
  induction k as [|k IH]; intros b Hl Hf; [lia|]. cbn [cv].
  destruct b as [|y r]; [reflexivity|]. inversion Hf as [|? ? Hy Hr]; subst. cbn [length] in Hl.
  replace (Nat.eqb k 0) with false by lia. replace (y <? 128) with false by lia. rewrite IH; auto; lia.
Qed.
(* decided as soon as a terminator is present or k bytes are available *)
Lemma cv_decided : forall k b, (k <= length b)%nat \/ Exists (fun y => y <? 128 = true) b -> cv k b <> VTrunc.
Proof.
  intros k b H E. apply cv_trunc in E. destruct E as [L F]. destruct H as [H|H]; [lia|].
  apply Exists_exists in H. destruct H as (y & Hin & Hy). rewrite Forall_forall in F. specialize (F _ Hin). cbn beta in *. lia.
Qed.

Lemma encode_varint_len v : (1 <= length (encode_varint v) <= 10)%nat.
Proof. apply enc_f_len. lia. Qed.

(* every byte of an encoding but the last has the continuation bit *)
Lemma enc_f_prefix_cont : forall k v j, (j < length (enc_f k v))%nat -> Forall (fun y => 128 <= y) (firstn j (enc_f k v)).
Proof.
  induction k as [|k IH]; intros v j Hj; cbn [enc_f] in *; [cbn in Hj; lia|].
  destruct (v <? 128) eqn:E.
  - cbn [length] in Hj. assert (j = 0)%nat by lia. subst j. constructor.
  - destruct j as [|j']; [constructor|]. cbn [firstn length] in *. constructor; [lia|]. apply IH. lia.
Qed.
