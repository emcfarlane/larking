(* encoding/base64: StdEncoding / URLEncoding, padded and raw, and the decoders larking calls. *)
From Larking Require Import Base.GoSem.
Local Open Scope N_scope.

(* alphabets: url = true replaces + / by - _ *)
Definition b64_char (url : bool) (v : N) : byte :=
  if v <? 26 then 65 + v
  else if v <? 52 then 97 + (v - 26)
  else if v <? 62 then 48 + (v - 52)
  else if v =? 62 then (if url then 45 else 43)
  else (if url then 95 else 47).
Definition b64_val (url : bool) (c : byte) : option N :=
  if (65 <=? c) && (c <=? 90) then Some (c - 65)
  else if (97 <=? c) && (c <=? 122) then Some (c - 97 + 26)
  else if (48 <=? c) && (c <=? 57) then Some (c - 48 + 52)
  else if c =? (if url then 45 else 43) then Some 62
  else if c =? (if url then 95 else 47) then Some 63
  else None.

Lemma b64_val_char url v : v < 64 -> b64_val url (b64_char url v) = Some v.
Proof.
  intros H. unfold b64_val, b64_char.
  destruct (v <? 26) eqn:A.
  { replace ((65 <=? 65 + v) && (65 + v <=? 90)) with true by lia. f_equal; lia. }
  destruct (v <? 52) eqn:B.
  { replace ((65 <=? 97 + (v - 26)) && (97 + (v - 26) <=? 90)) with false by lia.
    replace ((97 <=? 97 + (v - 26)) && (97 + (v - 26) <=? 122)) with true by lia. f_equal; lia. }
  destruct (v <? 62) eqn:C.
  { replace ((65 <=? 48 + (v - 52)) && (48 + (v - 52) <=? 90)) with false by lia.
    replace ((97 <=? 48 + (v - 52)) && (48 + (v - 52) <=? 122)) with false by lia.
    replace ((48 <=? 48 + (v - 52)) && (48 + (v - 52) <=? 57)) with true by lia. f_equal; lia. }
  destruct (v =? 62) eqn:D.
  - destruct url; cbn; f_equal; lia.
  - assert (v = 63) by lia. subst v. destruct url; reflexivity.
Qed.

(* encode: 3 bytes -> 4 characters; tail of 1 or 2 bytes -> 2 or 3 characters (+ '=' padding) *)
Fixpoint b64_encode (url pad : bool) (m : bytes) : bytes :=
  match m with
  | a :: b :: c :: r =>
      b64_char url (a / 4) :: b64_char url ((a mod 4) * 16 + b / 16) ::
      b64_char url ((b mod 16) * 4 + c / 64) :: b64_char url (c mod 64) :: b64_encode url pad r
  | [a; b] =>
      b64_char url (a / 4) :: b64_char url ((a mod 4) * 16 + b / 16) :: b64_char url ((b mod 16) * 4) ::
      (if pad then [61] else [])
  | [a] =>
      b64_char url (a / 4) :: b64_char url ((a mod 4) * 16) :: (if pad then [61; 61] else [])
  | [] => []
  end.

(* decode, strict about the final quantum as Go's decoder is: with padding the input is whole
   4-character groups, the last possibly ending in = or ==; raw input has a 2- or 3-character tail *)
Fixpoint b64_decode_f (fuel : nat) (url pad : bool) (s : bytes) : option bytes :=
  match fuel with
  | O => None
  | S f =>
    match s with
    | [] => Some []
    | [w; x] =>
      if pad then None else
      match b64_val url w, b64_val url x with
      | Some w, Some x => Some [w * 4 + x / 16]     (* trailing bits are not checked (non-strict) *)
      | _, _ => None
      end
    | [w; x; y] =>
      if pad then None else
      match b64_val url w, b64_val url x, b64_val url y with
      | Some w, Some x, Some y => Some [w * 4 + x / 16; (x mod 16) * 16 + y / 4]
      | _, _, _ => None
      end
    | w :: x :: y :: z :: r =>
      match b64_val url w, b64_val url x with
      | Some w, Some x =>
        if (y =? 61) && (z =? 61) && is_nil r && pad then Some [w * 4 + x / 16]
        else match b64_val url y with
             | None => None
             | Some y =>
               if (z =? 61) && is_nil r && pad then Some [w * 4 + x / 16; (x mod 16) * 16 + y / 4]
               else match b64_val url z with
                    | None => None
                    | Some z =>
                      match b64_decode_f f url pad r with
                      | Some t => Some (w * 4 + x / 16 :: (x mod 16) * 16 + y / 4 :: (y mod 4) * 64 + z :: t)
                      | None => None
                      end
                    end
             end
      | _, _ => None
      end
    | _ => None
    end
  end.
Definition b64_decode (url pad : bool) (s : bytes) : option bytes := b64_decode_f (S (length s)) url pad s.

Lemma b64_val_not_pad url c v : b64_val url c = Some v -> (c =? 61) = false.
Proof.
  unfold b64_val. intros H. destruct (c =? 61) eqn:E; [|reflexivity].
  apply N.eqb_eq in E. subst c. destruct url; cbn in H; discriminate.
Qed.

(* a sextet holds two bit fields, h above the low bits l; / and mod give them back *)
Lemma pack_div h l k : l < k -> (h * k + l) / k = h.
Proof. intros H. rewrite N.div_add_l, N.div_small by lia. apply N.add_0_r. Qed.
Lemma pack_mod h l k : l < k -> (h * k + l) mod k = l.
Proof. intros H. rewrite N.add_comm, N.mod_add by lia. apply N.mod_small, H. Qed.
Lemma hi_lt a k q : a < k * q -> a / k < q.
Proof. intros H. apply N.div_lt_upper_bound; [lia|exact H]. Qed.

Lemma sext1 a : a < 256 -> a / 4 < 64. Proof. exact (hi_lt a 4 64). Qed.
Lemma sext2 a b : b < 256 -> (a mod 4) * 16 + b / 16 < 64.
Proof. intros Hb. pose proof (N.mod_lt a 4). pose proof (hi_lt b 16 16 Hb). lia. Qed.
Lemma sext3 b c : c < 256 -> (b mod 16) * 4 + c / 64 < 64.
Proof. intros Hc. pose proof (N.mod_lt b 16). pose proof (hi_lt c 64 4 Hc). lia. Qed.
Lemma sext4 c : c mod 64 < 64. Proof. apply N.mod_lt; lia. Qed.
Lemma tail1 a : (a mod 4) * 16 < 64. Proof. pose proof (N.mod_lt a 4). lia. Qed.
Lemma tail2 b : (b mod 16) * 4 < 64. Proof. pose proof (N.mod_lt b 16). lia. Qed.

Lemma byte1 a b : b < 256 -> (a / 4) * 4 + ((a mod 4) * 16 + b / 16) / 16 = a.
Proof. intros Hb. rewrite pack_div by (apply hi_lt; exact Hb). pose proof (N.div_mod a 4). lia. Qed.
Lemma byte2 a b c : b < 256 -> c < 256 ->
  (((a mod 4) * 16 + b / 16) mod 16) * 16 + ((b mod 16) * 4 + c / 64) / 4 = b.
Proof.
  intros Hb Hc. rewrite pack_mod by (apply hi_lt; exact Hb). rewrite pack_div by (apply hi_lt; exact Hc).
  pose proof (N.div_mod b 16). lia.
Qed.
Lemma byte3 b c : c < 256 -> (((b mod 16) * 4 + c / 64) mod 4) * 64 + c mod 64 = c.
Proof. intros Hc. rewrite pack_mod by (apply hi_lt; exact Hc). pose proof (N.div_mod c 64). lia. Qed.

(* the encoder works three bytes at a time *)
Lemma list_ind3 {A} (P : list A -> Prop) :
  P [] -> (forall a, P [a]) -> (forall a b, P [a; b]) -> (forall a b c r, P r -> P (a :: b :: c :: r)) ->
  forall l, P l.
Proof.
  intros H0 H1 H2 H3. fix IH 1. intros [|a [|b [|c r]]]; [exact H0|apply H1|apply H2|apply H3, IH].
Qed.

(* an encoding is the alphabet mapped over the 6-bit groups, then the padding *)
Fixpoint sextets (m : bytes) : list N :=
  match m with
  | a :: b :: c :: r => a / 4 :: (a mod 4) * 16 + b / 16 :: (b mod 16) * 4 + c / 64 :: c mod 64 :: sextets r
  | [a; b] => [a / 4; (a mod 4) * 16 + b / 16; (b mod 16) * 4]
  | [a] => [a / 4; (a mod 4) * 16]
  | [] => []
  end.
Fixpoint pad_len (m : bytes) : nat :=
  match m with _ :: _ :: _ :: r => pad_len r | [_; _] => 1 | [_] => 2 | [] => 0 end.

Lemma b64_encode_sextets url pad m :
  b64_encode url pad m = map (b64_char url) (sextets m) ++ (if pad then repeat 61 (pad_len m) else []).
Proof.
  induction m as [|a|a b|a b c r IH] using list_ind3; cbn [b64_encode sextets pad_len map app repeat];
    [destruct pad; reflexivity..|].
  rewrite IH. reflexivity.
Qed.

Theorem b64_roundtrip_f : forall fuel url pad m, Forall (fun b => b < 256) m ->
  (length m < fuel)%nat -> b64_decode_f fuel url pad (b64_encode url pad m) = Some m.
Proof.
  induction fuel as [|f IH]; intros url pad m H Hf; [lia|].
  destruct m as [|a [|b [|c r]]].
  - reflexivity.
  - (* in a short tail the missing bytes count as 0 *)
    inversion H as [|? ? Ha _]; subst. cbn [b64_encode].
    assert (V1 := b64_val_char url _ (sext1 a Ha)). assert (V2 := b64_val_char url _ (tail1 a)).
    assert (E1 := byte1 a 0 eq_refl). change (0 / 16) with 0 in E1. rewrite N.add_0_r in E1.
    destruct pad; cbn [app b64_decode_f]; rewrite V1, V2, ?N.eqb_refl; cbn [is_nil andb]; now rewrite E1.
  - inversion H as [|? ? Ha H']; subst. inversion H' as [|? ? Hb _]; subst. cbn [b64_encode].
    assert (V1 := b64_val_char url _ (sext1 a Ha)).
    assert (V2 := b64_val_char url _ (sext2 a b Hb)).
    assert (V3 := b64_val_char url _ (tail2 b)). assert (E2 := byte2 a b 0 Hb eq_refl).
    change (0 / 64) with 0 in E2. rewrite N.add_0_r in E2.
    destruct pad; cbn [app b64_decode_f]; rewrite V1, V2, ?(b64_val_not_pad _ _ _ V3); cbn [andb];
      rewrite V3, ?N.eqb_refl; cbn [is_nil andb]; now rewrite byte1, E2 by assumption.
  - inversion H as [|? ? Ha H']; subst. inversion H' as [|? ? Hb H'']; subst.
    inversion H'' as [|? ? Hc Hr]; subst. cbn [b64_encode b64_decode_f].
    rewrite (b64_val_char url _ (sext1 a Ha)), (b64_val_char url _ (sext2 a b Hb)).
    assert (V3 := b64_val_char url _ (sext3 b c Hc)). assert (V4 := b64_val_char url _ (sext4 c)).
    rewrite (b64_val_not_pad _ _ _ V3), (b64_val_not_pad _ _ _ V4). cbn [andb]. rewrite V3, V4.
    cbn [length] in Hf. rewrite IH by (auto; lia).
    rewrite byte1, byte2, byte3 by auto. reflexivity.
Qed.

Lemma b64_encode_len url pad m : (length m <= length (b64_encode url pad m))%nat.
Proof. induction m as [|a|a b|a b c r IH] using list_ind3; cbn [b64_encode length]; lia. Qed.

Theorem b64_roundtrip url pad m : Forall (fun b => b < 256) m -> b64_decode url pad (b64_encode url pad m) = Some m.
Proof. intros H. apply b64_roundtrip_f; [exact H|]. pose proof (b64_encode_len url pad m). lia. Qed.

(* lengths: a padded encoding is whole quanta, and so is whatever the padded decoder accepts; a raw encoding that
   happens to be whole quanta is the padded one *)
Lemma quantum_len {A} (w x y z : A) r : (length (w :: x :: y :: z :: r) mod 4 = length r mod 4)%nat.
Proof. change (length (w :: x :: y :: z :: r)) with (4 + length r)%nat. now rewrite <- Nat.add_mod_idemp_l by lia. Qed.

Lemma b64_len_pad url m : (length (b64_encode url true m) mod 4 = 0)%nat.
Proof.
  induction m as [|a|a b|a b c r IH] using list_ind3; cbn [b64_encode app]; try reflexivity.
  now rewrite quantum_len.
Qed.
Lemma b64_raw_eq_pad url m :
  (length (b64_encode url false m) mod 4 = 0)%nat -> b64_encode url false m = b64_encode url true m.
Proof.
  induction m as [|a|a b|a b c r IH] using list_ind3; cbn [b64_encode app]; try reflexivity; try discriminate.
  rewrite quantum_len. intros H. now rewrite IH.
Qed.
Lemma b64_decode_pad_len : forall fuel s b, b64_decode_f fuel false true s = Some b -> (length s mod 4 = 0)%nat.
Proof.
  induction fuel as [|f IH]; intros s b0 Hd; [discriminate|]. cbn [b64_decode_f] in Hd.
  destruct s as [|w [|x [|y [|z r]]]]; try discriminate; try reflexivity. rewrite quantum_len.
  destruct (b64_val false w), (b64_val false x); try discriminate. rewrite !andb_true_r in Hd.
  (* the two padded endings require r = [] *)
  destruct r as [|c r']; [reflexivity|]. cbn [is_nil] in Hd. rewrite !andb_false_r in Hd.
  destruct (b64_val false y); try discriminate. destruct (b64_val false z); try discriminate.
  destruct (b64_decode_f f false true (c :: r')) eqn:R; try discriminate. exact (IH _ _ R).
Qed.
