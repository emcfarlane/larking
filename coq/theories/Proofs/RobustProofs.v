(* C09: totality of request decoding, receive loops, entry dispatch.
   Request decoding (Model/Params.v, Model/Transcode.v): parseParam, fieldPath, params.set,
   parseQueryParams, path parameters, decodeRequestArgs, RecvMsg on the first message, serveHTTP's
   decode -- never Panic, never OutOfFuel, for every schema, every oracle, every query string, every
   capture, every body; the rule is one that registration accepts.
   The receive loops of the stream transports never end in a panic: `ended`, which the end relations
   of the refinement theorems of C06 imply.
   The entry dispatch of Mux.ServeHTTP (Model/Serve.v): one path per request, refusals are HTTP
   statuses, a handler is reached only by a request that passed every check. *)
From Larking Require Import Base.GoSem Base.Reader
  Model.Codec Model.StreamHTTP Model.GrpcFrame Model.Timeout Model.Serve Model.Lexer Model.Trie Model.Match
  Spec.StreamSpec Proofs.CodecProofs Proofs.StreamProofs Proofs.TrieProofs Proofs.RoutingProofs.
(* last: Transcode's rule / request / path_params / BField are the ones meant below *)
From Larking Require Import Model.Schema Model.Params Model.Transcode.

Section Decoding.
Variable ofloat : bool -> bytes -> option N.
Variable owkt : wkt -> bool -> bytes -> option subtree.
Variable unmarshal : nat -> nat -> bytes -> option subtree.
Variable inflate : bytes -> option bytes.

Lemma lift_no_crash {A} (o : option A) : no_crash (lift o).
Proof. destruct o; exact I. Qed.

Lemma parse_kind_no_crash sch k raw : no_crash (parse_kind ofloat owkt sch k raw).
Proof.
  destruct k; cbn [parse_kind]; unfold int_param; try apply lift_no_crash; try exact I.
  - unfold parse_enum. destruct (json_iclass I32 raw); [exact I|].
    destruct (nth_error (s_enums sch) e); [|exact I].
    destruct (e_null e0 && bytes_eqb raw lit_null); [exact I|apply lift_no_crash].
  - destruct (msg_wkt sch m); try exact I; apply lift_no_crash.
Qed.

Theorem parse_param_no_crash sch fds raw : no_crash (parse_param ofloat owkt sch fds raw).
Proof. unfold parse_param. destruct fds; [exact I|apply parse_kind_no_crash]. Qed.

(* what fieldPath returns: every step but the last goes through a message-typed field *)
Fixpoint chained (fds : list step) : bool :=
  match fds with
  | [] => true
  | st :: rest =>
    match rest with
    | [] => true
    | _ => match field_msg (snd st) with Some _ => chained rest | None => false end
    end
  end.

Lemma field_path_chained sch : forall names pf fds, field_path sch pf names = Some fds -> chained fds = true.
Proof.
  induction names as [|n rest IH]; intros pf fds H; cbn [field_path] in H.
  - inversion H; reflexivity.
  - destruct (find_field pf n) as [fd|]; [|discriminate].
    destruct rest as [|n' rest'].
    + inversion H; reflexivity.
    + destruct (field_msg fd) as [m|] eqn:Em; [|discriminate].
      destruct (field_path sch (msg_fields sch m) (n' :: rest')) as [tl|] eqn:Et; [|discriminate].
      cbn in H. inversion H; subst fds. specialize (IH _ _ Et).
      cbn [chained snd]. destruct tl as [|s tl']; [reflexivity|]. rewrite Em. exact IH.
Qed.

(* params.set on one parameter: a repeated or map field on the way is an error; the Panic of the
   model (Mutable(fd).Message() on a scalar) needs a path fieldPath never returns *)
Lemma set_walk_no_crash : forall fds pp v M, chained fds = true -> no_crash (set_walk fds pp v M).
Proof.
  induction fds as [|st rest IH]; intros pp v M H; cbn [set_walk]; [exact I|].
  destruct rest as [|st' rest'].
  - destruct (f_card (snd st)); exact I.
  - cbn [chained] in H. destruct (field_msg (snd st)) eqn:Em; [|discriminate].
    destruct (f_card (snd st)); try exact I. apply IH. exact H.
Qed.

Lemma params_set_no_crash : forall ps M, (forall p, In p ps -> chained (fst p) = true) -> no_crash (params_set ps M).
Proof.
  induction ps as [|p r IH]; intros M H; cbn [params_set]; [exact I|].
  apply bind_no_crash.
  - unfold set_param. apply set_walk_no_crash. apply H. now left.
  - intros M1 _. apply IH. intros q Hq. apply H. now right.
Qed.

Lemma parse_values_spec sch fds : forall vs,
  ok_all (fun ps => forall p, In p ps -> fst p = fds) (parse_values ofloat owkt sch fds vs).
Proof.
  induction vs as [|v r IH]; cbn [parse_values]; [intros p []|].
  apply (ok_all_bind (fun _ => True)); [apply ok_all_no_crash; split; [apply parse_param_no_crash|auto]|]. intros pv _.
  apply (ok_all_bind _ _ _ _ IH). intros ps' IH2 p [<-|Hin]; [reflexivity|auto].
Qed.

(* parseQueryParams: any raw query (keys and values are arbitrary byte strings) *)
Theorem parse_query_spec sch root : forall q,
  no_crash (parse_query ofloat owkt sch root q) /\
  forall ps, parse_query ofloat owkt sch root q = Ok ps -> forall p, In p ps -> chained (fst p) = true.
Proof.
  intros q. apply ok_all_no_crash. induction q as [|[key vs] r IH]; cbn [parse_query]; [intros p []|].
  destruct (field_path sch root (split_dots [] key)) as [fds|] eqn:Ef; [|exact I].
  apply (ok_all_bind _ _ _ _ (parse_values_spec sch fds vs)). intros ps1 V2.
  apply (ok_all_bind _ _ _ _ IH). intros ps2 IH2 p Hin.
  apply in_app_or in Hin. destruct Hin as [Hin|Hin]; [|auto].
  rewrite (V2 p Hin). eapply field_path_chained; eauto.
Qed.

(* the captures of the matched rule, converted (path.search) *)
Lemma path_params_spec sch : forall vcs,
  Forall (fun vc => chained (fst vc) = true) vcs ->
  ok_all (fun ps => forall p, In p ps -> chained (fst p) = true) (path_params ofloat owkt sch vcs).
Proof.
  induction 1 as [|[fds c] r Hx _ IH]; cbn [path_params fst] in *; [intros p []|].
  apply (ok_all_bind _ _ _ _ IH). intros ps' IH2.
  assert (Hall : forall v p, In p (ps' ++ [(fds, v)]) -> chained (fst p) = true).
  { intros v p Hin. apply in_app_or in Hin. destruct Hin as [Hin|[<-|[]]]; [auto|exact Hx]. }
  destruct fds as [|st fds']; [exact (Hall _)|].
  pose proof (parse_param_no_crash sch (st :: fds') c) as Hp.
  destruct (parse_param ofloat owkt sch (st :: fds') c) as [pv| | |]; try contradiction; [exact (Hall _)|exact I].
Qed.

(* a body selector as addRule accepts it: singular message fields only *)
Definition body_step_ok (st : step) : bool :=
  match f_card (snd st), field_msg (snd st) with Singular, Some _ => true | _, _ => false end.
Definition body_sel_ok (b : body_sel) : bool :=
  match b with BField fds => forallb body_step_ok fds | _ => true end.

Lemma body_walk_no_crash : forall fds pp M, forallb body_step_ok fds = true -> no_crash (body_walk fds pp M).
Proof.
  induction fds as [|st rest IH]; intros pp M H; cbn [body_walk]; [exact I|].
  cbn [forallb] in H. apply andb_true_iff in H. destruct H as [H1 H2]. unfold body_step_ok in H1.
  destruct (f_card (snd st)); try discriminate. destruct (field_msg (snd st)); try discriminate. apply IH. exact H2.
Qed.

Lemma decode_body_no_crash sch r rq fds b : forallb body_step_ok fds = true ->
  no_crash (decode_body unmarshal inflate sch r rq fds b).
Proof.
  intros H. unfold decode_body. apply bind_no_crash; [apply body_walk_no_crash; exact H|].
  intros M0 _. destruct (q_codec rq) as [cd|]; [|exact I]. destruct (if q_gzip rq then inflate b else Some b) as [raw|]; [|exact I].
  destruct (unmarshal cd (body_type sch r) raw); exact I.
Qed.

Definition rule_ok (r : rule) : Prop :=
  Forall (fun fds => chained fds = true) (r_vars r) /\ body_sel_ok (r_body r) = true.

Lemma recv_first_no_crash sch r rq ps : body_sel_ok (r_body r) = true ->
  (forall p, In p ps -> chained (fst p) = true) ->
  no_crash (recv_first unmarshal inflate sch r rq ps).
Proof.
  intros Hb Hps. unfold recv_first. apply bind_no_crash; [|intros M0 _; apply params_set_no_crash; exact Hps].
  destruct (r_body r) as [| |fds] eqn:Eb; destruct (q_body rq); try exact I.
  - apply decode_body_no_crash. reflexivity.
  - apply decode_body_no_crash. exact Hb.
Qed.

Lemma combine_Forall_fst {A B} (P : A -> Prop) : forall (l : list A) (l' : list B),
  Forall P l -> Forall (fun ab => P (fst ab)) (combine l l').
Proof.
  induction l as [|a l IH]; intros l' H; cbn; [constructor|].
  destruct l' as [|b l']; [constructor|]. inversion H; subst. constructor; auto.
Qed.

(* serveHTTP + RecvMsg: every request against every rule registration accepts *)
Theorem decode_request_no_crash sch r rq : rule_ok r ->
  no_crash (decode_request ofloat owkt unmarshal inflate sch r rq).
Proof.
  intros [Hv Hb]. unfold decode_request.
  destruct (proj1 (ok_all_no_crash _ _) (path_params_spec sch (combine (r_vars r) (q_caps rq))
              (combine_Forall_fst (fun fds => chained fds = true) _ _ Hv))) as [P1 P2].
  apply bind_no_crash; [exact P1|]. intros ps Eps.
  destruct (parse_query_spec sch (msg_fields sch (r_input r)) (q_query rq)) as [Q1 Q2].
  apply bind_no_crash; [exact Q1|]. intros qs Eqs.
  destruct (if q_gzip rq then match q_body rq with Some b => inflate b | None => Some [] end else Some []); [|exact I].
  apply recv_first_no_crash; [exact Hb|].
  intros p Hin. apply in_app_or in Hin. destruct Hin as [Hin|Hin]; [eapply Q2|eapply P2]; eauto.
Qed.
End Decoding.

(* the hypothesis is needed: a body selector through a scalar field (which addRule refuses) makes the
   model panic on the first request with a body *)
Definition f_scalar : field := mkField 1%N [110%N] [110%N] KString Singular None false.
Definition bad_rule : rule := mkRule 0 [] (BField [([f_scalar], f_scalar)]).
Definition any_req : request := mkReq [] [] (Some [123; 125]%N) (Some 0) false.
Lemma decode_request_bad_selector_panics :
  decode_request (fun _ _ => None) (fun _ _ _ => None) (fun _ _ _ => Some []) (fun b => Some b)
    (mkSchema [mkMsg WNone [f_scalar]] []) bad_rule any_req = Panic PKind.
Proof. reflexivity. Qed.

(* a rule that registration accepts, and a request against it *)
Definition f_sub : field := mkField 2%N [115%N] [115%N] (KMessage 0) Singular None true.
Definition f_rep : field := mkField 3%N [114%N] [114%N] KString Repeated None false.
Definition good_rule : rule := mkRule 0 [[([f_scalar; f_sub; f_rep], f_sub); ([f_scalar; f_sub; f_rep], f_scalar)]] (BField [([f_scalar; f_sub; f_rep], f_sub)]).
Lemma good_rule_ok : rule_ok good_rule.
Proof. split; [repeat constructor|reflexivity]. Qed.

Definition ended (e : rend) : Prop := match e with EndPanic | EndFuel => False | _ => True end.

Lemma end_rel_ended e p : end_rel e p -> ended e.
Proof. destruct e, p; cbn; auto. Qed.
Lemma end_sim_ended e p : end_sim e p -> ended e.
Proof. destruct e, p; cbn; auto. Qed.

(* gRPC: every limit, decompressor, validity oracle, body, schedule, tail error *)
Theorem grpc_recv_all_ends limit gunzip valid body t sch eofwd :
  ended (snd (grpc_recv_all (S (length body)) limit gunzip valid (XSrc (Src body sch eofwd) t))).
Proof.
  eapply end_sim_ended, (grpc_recv_refines (S (length body)) limit gunzip valid (XSrc (Src body sch eofwd) t)).
  cbn. lia.
Qed.

(* the path a request lands on, stated without the order of the tests *)
Definition lands (r : req) (e : Serve.entry) : Prop :=
  let web := has_prefix grpc_web (q_ctype r) = true in
  let grpc := q_major r = 2%N /\ has_prefix grpc_base (q_ctype r) = true in
  let ws := is_websocket_request r = true in
  match e with
  | EWeb => web
  | EGrpc => ~ web /\ grpc
  | EWs => ~ web /\ ~ grpc /\ ws
  | EHttp => ~ web /\ ~ grpc /\ ~ ws
  end.

Lemma lands_dispatch r : lands r (dispatch r).
Proof.
  unfold dispatch, lands. destruct (has_prefix grpc_web (q_ctype r)); [reflexivity|].
  destruct (N.eqb_spec (q_major r) 2) as [M|M]; cbn [andb];
    destruct (has_prefix grpc_base (q_ctype r)); destruct (is_websocket_request r); intuition congruence.
Qed.
Lemma lands_fun r e e' : lands r e -> lands r e' -> e = e'.
Proof. unfold lands. destruct e, e'; try reflexivity; tauto. Qed.

Theorem dispatch_lands r e : dispatch r = e <-> lands r e.
Proof. split; [intros <-; apply lands_dispatch|apply lands_fun, lands_dispatch]. Qed.

(* the checks of serveGRPC in one statement: a refusal is one of three statuses, a handler is reached
   only past every check *)
Lemma grpc_pre_cases c web major ct r :
  match grpc_pre c web major ct r with
  | Refuse s => In s [400; 404; 415]%N
  | ReachGrpc w =>
    w = web /\ major = 2%N /\ q_method r = post /\ grpc_codec_ok c ct = true /\ q_known r = true /\
    (q_encoding r = [] \/ memb (q_encoding r) (compressor_keys c) = true) /\
    (q_timeout r = [] \/ exists ns, decode_timeout (q_timeout r) = Some ns)
  | Transcode _ => False
  end.
Proof.
  unfold grpc_pre.
  destruct (N.eqb_spec major 2) as [M|M]; cbn [negb]; [|cbn; auto].
  destruct (bytes_eqb (q_method r) post) eqn:P; cbn [negb]; [|cbn; auto].
  destruct (grpc_codec_ok c ct) eqn:C; cbn [negb]; [|cbn; auto].
  destruct (negb (is_nil (q_encoding r)) && negb (memb (q_encoding r) (compressor_keys c))) eqn:E; [cbn; auto|].
  destruct (negb (is_nil (q_timeout r)) && match decode_timeout (q_timeout r) with None => true | Some _ => false end) eqn:T; [cbn; auto|].
  destruct (q_known r) eqn:K; cbn [negb]; [|cbn; auto].
  apply bytes_eqb_eq in P. repeat split; auto.
  - apply andb_false_iff in E. destruct E as [E|E].
    + left. destruct (q_encoding r); [reflexivity|discriminate].
    + right. now apply negb_false_iff in E.
  - apply andb_false_iff in T. destruct T as [T|T].
    + left. destruct (q_timeout r); [reflexivity|discriminate].
    + right. destruct (decode_timeout (q_timeout r)); [eauto|discriminate].
Qed.

Lemma web_pre_cases c r :
  (exists s, web_pre c r = Refuse s /\ In s [400; 500]%N) \/ exists ct, web_pre c r = grpc_pre c true 2 ct r.
Proof.
  unfold web_pre. destruct (negb _); [left; eexists; split; [reflexivity|cbn; auto]|].
  destruct (cut_plus (q_ctype r)) as [[typ enc] ok].
  destruct (negb _); [left; eexists; split; [reflexivity|cbn; auto]|].
  destruct (equal_fold_ascii _ _); [left; eexists; split; [reflexivity|cbn; auto]|]. right. eexists. reflexivity.
Qed.

Lemma serve_pre_cases c r :
  match serve_pre c r with
  | Refuse s => In s [400; 404; 415; 500]%N
  | ReachGrpc w =>
    q_method r = post /\ q_known r = true /\
    (q_encoding r = [] \/ memb (q_encoding r) (compressor_keys c) = true) /\
    (q_timeout r = [] \/ exists ns, decode_timeout (q_timeout r) = Some ns) /\
    (w = true <-> dispatch r = EWeb)
  | Transcode ws => (dispatch r = EWs /\ ws = true) \/ (dispatch r = EHttp /\ ws = false)
  end.
Proof.
  unfold serve_pre. destruct (dispatch r) eqn:D; [| |left; auto|right; auto].
  - destruct (web_pre_cases c r) as [(s & -> & Hs)|(ct & ->)]; [cbn in *; tauto|].
    pose proof (grpc_pre_cases c true 2 ct r) as K.
    destruct (grpc_pre c true 2 ct r) as [s|w|ws]; [cbn in *; tauto| |contradiction].
    destruct K as (-> & _ & A & _ & B & C & E). repeat split; auto.
  - pose proof (grpc_pre_cases c false (q_major r) (q_ctype r) r) as K.
    destruct (grpc_pre c false (q_major r) (q_ctype r) r) as [s|w|ws]; [cbn in *; tauto| |contradiction].
    destruct K as (-> & _ & A & _ & B & C & E). repeat split; auto; discriminate.
Qed.

(* a refusal before any handler is one of four HTTP statuses *)
Theorem serve_pre_refusals c r s : serve_pre c r = Refuse s -> In s [400; 404; 415; 500]%N.
Proof. intros H. pose proof (serve_pre_cases c r) as K. rewrite H in K. exact K. Qed.

(* a handler runs on a gRPC stream only for a POST naming a registered method, with a codec and a
   compressor the mux has, and a timeout the wire grammar allows *)
Theorem serve_pre_reach c r w : serve_pre c r = ReachGrpc w ->
  q_method r = post /\ q_known r = true /\
  (q_encoding r = [] \/ memb (q_encoding r) (compressor_keys c) = true) /\
  (q_timeout r = [] \/ exists ns, decode_timeout (q_timeout r) = Some ns) /\
  (w = true <-> dispatch r = EWeb).
Proof. intros H. pose proof (serve_pre_cases c r) as K. rewrite H in K. exact K. Qed.

(* transcoding is entered exactly by the requests that are neither gRPC-web nor gRPC; the verb is
   WEBSOCKET exactly when an Upgrade value is "websocket" *)
Theorem serve_pre_transcode c r ws : serve_pre c r = Transcode ws <->
  (dispatch r = EWs /\ ws = true) \/ (dispatch r = EHttp /\ ws = false).
Proof.
  split.
  - intros H. pose proof (serve_pre_cases c r) as K. rewrite H in K. exact K.
  - unfold serve_pre. intros [[-> ->]|[-> ->]]; reflexivity.
Qed.

(* composition: whatever the request, the entry point refuses with an HTTP status, or hands a checked
   request to a gRPC handler, or routes it -- and routing on any published trie is benign *)
Section Entry.
Variables isLetter isNumber : N -> bool.
Variable resolves body_ok resp_ok : str -> list str -> bool.
Variable okconv : list str -> str -> bool.

Definition ws_verb : str := [87; 69; 66; 83; 79; 67; 75; 69; 84]%N.   (* "WEBSOCKET" *)

Theorem serve_entry_total c r L root verb p :
  TrieProofs.Inv isLetter isNumber resolves L root ->
  match serve_pre c r with
  | Refuse s => status_ok s = true
  | ReachGrpc _ => q_known r = true
  | Transcode ws => MatchProofs.benign (route okconv isLetter isNumber root (if ws then ws_verb else verb) p)
  end.
Proof.
  intros HI. destruct (serve_pre c r) as [s|w|ws] eqn:E.
  - apply serve_pre_refusals in E. cbn in E. destruct E as [<-|[<-|[<-|[<-|[]]]]]; reflexivity.
  - apply serve_pre_reach in E. tauto.
  - eapply route_total; eauto.
Qed.
End Entry.

Section Published.
Variables isLetter isNumber : N -> bool.
Variable resolves body_ok resp_ok : str -> list str -> bool.
Variable okconv : list str -> str -> bool.

(* routing on whatever a history of registerService calls (accepted or refused, in any order, with
   any rule texts) has published, starting from the empty mux *)
Theorem route_published_total (svcs : list (list mdecl)) verb p :
  MatchProofs.benign (route okconv isLetter isNumber
    (run_services isLetter isNumber resolves body_ok resp_ok empty_node svcs) verb p).
Proof.
  destruct (published_Inv isLetter isNumber resolves body_ok resp_ok svcs [] empty_node
              (Inv_empty isLetter isNumber resolves)) as (L' & HI & _).
  eapply route_total; eauto.
Qed.
End Published.
