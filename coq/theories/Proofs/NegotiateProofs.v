(* Model/Negotiate.v against Spec/AcceptSpec.v. parse_accept is total and its q-values are `nonneg`.
   negotiate_content_type is a fold over (offer, range) pairs; `inv2` says of a prefix of the pairs that
   the state holds the first best admitting pair so far, which gives admitted / best / first at the end.
   The boolean checkers of the specification decide their readings. *)
From Coq Require Import QArith Lqa.
From Larking Require Import Base.GoSem Model.Negotiate Spec.AcceptSpec.
Local Close Scope Q_scope.
Local Open Scope nat_scope.
Local Open Scope bool_scope.

Lemma qltb_lt x y : qltb x y = true <-> (x < y)%Q.
Proof.
  unfold qltb. rewrite negb_true_iff, <- not_true_iff_false, Qle_bool_iff.
  split; [apply Qnot_le_lt|apply Qlt_not_le].
Qed.
Lemma qltb_ge x y : qltb x y = false <-> (y <= x)%Q.
Proof.
  unfold qltb. rewrite negb_false_iff. apply Qle_bool_iff.
Qed.
Lemma qeqb_neq x y : Qeq_bool x y = false <-> ~ (x == y)%Q.
Proof. rewrite <- Qeq_bool_iff. destruct (Qeq_bool x y); split; congruence. Qed.

Lemma token_len_le s : token_len s <= length s.
Proof. induction s as [|c s IH]; cbn; auto. destruct (is_token c || (c =? 47)%N); cbn; lia. Qed.
Lemma skip_space_le s : length (skip_space s) <= length s.
Proof. induction s as [|c s IH]; cbn; auto. destruct (is_space c); cbn; lia. Qed.
Lemma has_prefix_len p s : has_prefix p s = true -> length p <= length s.
Proof.
  unfold has_prefix. intros H. apply bytes_eqb_eq in H.
  rewrite <- H at 1. rewrite firstn_length. lia.
Qed.
Lemma q_digits_le s : forall n d n' d' r, q_digits s n d = (n', d', r) -> length r <= length s.
Proof.
  induction s as [|c s IH]; cbn; intros n d n' d' r H.
  - inversion H; subst; cbn; lia.
  - destruct ((48 <=? c)%N && (c <=? 57)%N).
    + apply IH in H. lia.
    + inversion H; subst; cbn; lia.
Qed.
Lemma expect_quality_ok s q r : expect_quality s = Some (q, r) -> length r <= length s /\ (0 <= q)%Q.
Proof.
  unfold expect_quality. destruct s as [|c s]; [discriminate|].
  destruct ((c =? 48)%N || (c =? 49)%N); [|discriminate].
  assert (Hz : forall n d, (0 <= Qmake (Z.of_N n) d)%Q)
    by (intros n d; unfold Qle; cbn [Qnum Qden]; rewrite Z.mul_0_l, Z.mul_1_r; apply N2Z.is_nonneg).
  destruct s as [|c' s']; [|destruct (c' =? 46)%N;
    [destruct (q_digits s' 0%N 1%positive) as [[n d] rest] eqn:E; apply q_digits_le in E|]];
    intros H; inversion H; subst; (split; [cbn; lia|apply Hz]).
Qed.

Definition nonneg (l : list spec) : Prop := Forall (fun sp => (0 <= sq sp)%Q) l.

Lemma nonneg_snoc l v q : nonneg l -> (0 <= q)%Q -> nonneg (l ++ [mkspec v q]).
Proof. intros H Hq. apply Forall_app. split; auto. Qed.

Lemma parse_value_total : forall fuel s acc, length s < fuel -> nonneg acc ->
  exists l, parse_value fuel s acc = Ok l /\ nonneg l.
Proof.
  induction fuel as [|fuel IH]; intros s acc Hf Hacc; [lia|].
  cbn [parse_value].
  pose proof (token_len_le s) as Hn.
  rewrite (slice0_ok _ _ Hn), (slice_from_ok _ _ Hn). cbn [bind].
  destruct (is_nil (firstn (token_len s) s)) eqn:Hnil; [eauto|].
  assert (Hpos : 1 <= token_len s).
  { destruct (token_len s); [|lia]. cbn in Hnil. discriminate. }
  set (rest := skip_space (skipn (token_len s) s)).
  assert (Hrest : length rest < length s).
  { subst rest. pose proof (skip_space_le (skipn (token_len s) s)). rewrite skipn_length in H. lia. }
  (* the continuation after a range was accepted *)
  assert (Hafter : forall q s', (0 <= q)%Q -> length s' < length s ->
    exists l, (let acc0 := acc ++ [mkspec (firstn (token_len s) s) q] in
               let s0 := skip_space s' in
               if has_prefix comma s0 then do s1 <- slice_from 1 s0; parse_value fuel (skip_space s1) acc0
               else Ok acc0) = Ok l /\ nonneg l).
  { intros q s' Hq Hs'. cbn zeta.
    pose proof (skip_space_le s') as Hsk.
    destruct (has_prefix comma (skip_space s')) eqn:Hc.
    - apply has_prefix_len in Hc. change (length comma) with 1 in Hc. rewrite (slice_from_ok _ _ Hc).
      cbn [bind]. apply IH.
      + pose proof (skip_space_le (skipn 1 (skip_space s'))) as H2. rewrite skipn_length in H2. lia.
      + apply nonneg_snoc; auto.
    - eexists; split; [reflexivity|]. apply nonneg_snoc; auto. }
  destruct (has_prefix semicolon rest) eqn:Hsemi.
  - apply has_prefix_len in Hsemi. change (length semicolon) with 1 in Hsemi. rewrite (slice_from_ok _ _ Hsemi).
    cbn [bind].
    set (r2 := skip_space (skipn 1 rest)).
    assert (Hr2 : length r2 < length s).
    { subst r2. pose proof (skip_space_le (skipn 1 rest)) as H2. rewrite skipn_length in H2. lia. }
    destruct (has_prefix q_eq r2) eqn:Hq; [|eauto].
    apply has_prefix_len in Hq. change (length q_eq) with 2 in Hq. rewrite (slice_from_ok _ _ Hq).
    cbn [bind].
    destruct (expect_quality (skipn 2 r2)) as [[q s']|] eqn:Eq; [|eauto].
    apply expect_quality_ok in Eq. destruct Eq as [Hl Hq0]. rewrite skipn_length in Hl.
    apply Hafter; [exact Hq0|lia].
  - apply Hafter; [|exact Hrest]. unfold Qle; cbn; lia.
Qed.

Lemma parse_values_total : forall vs acc, nonneg acc -> exists l, parse_values vs acc = Ok l /\ nonneg l.
Proof.
  induction vs as [|s vs IH]; intros acc Hacc; cbn [parse_values]; [eauto|].
  destruct (parse_value_total (S (length s)) s acc) as [l [Hl Hn]]; [lia|auto|].
  rewrite Hl. cbn [bind]. apply IH; auto.
Qed.

Lemma parse_accept_ok : forall values, exists specs, parse_accept values = Ok specs /\ nonneg specs.
Proof. intros. apply parse_values_total. constructor. Qed.

Lemma parse_accept_total' : forall values, no_crash (parse_accept values) /\ exists specs, parse_accept values = Ok specs.
Proof.
  intros values. destruct (parse_accept_ok values) as [l [H _]]. rewrite H. split; [exact I|eauto].
Qed.

Lemma admits_byb_iff sp t : admits_byb sp t = true <-> admits_by sp t.
Proof.
  unfold admits_byb, admits_by. rewrite andb_true_iff, qltb_lt. tauto.
Qed.
Lemma admitsb_iff specs t : admitsb specs t = true <-> admits specs t.
Proof.
  unfold admitsb, admits. rewrite existsb_exists.
  split; intros [sp [H1 H2]]; exists sp; (split; [auto|]); apply admits_byb_iff; auto.
Qed.
Lemma betterb_iff a b : betterb a b = true <-> better a b.
Proof.
  unfold betterb, better. rewrite orb_true_iff, andb_true_iff, qltb_lt, Qeq_bool_iff, Nat.ltb_lt. tauto.
Qed.
Lemma best_choiceb_iff specs offers r : best_choiceb specs offers r = true <-> best_choice specs offers r.
Proof.
  unfold best_choiceb, best_choice. rewrite existsb_exists. split.
  - intros [sp [Hin H]]. apply andb_true_iff in H. destruct H as [Ha Hall].
    exists sp. split; [auto|]. split; [apply admits_byb_iff; auto|].
    intros o sp' Ho Hsp' Hadm Hb.
    rewrite forallb_forall in Hall. specialize (Hall o Ho). rewrite forallb_forall in Hall.
    specialize (Hall sp' Hsp'). apply negb_true_iff in Hall.
    apply admits_byb_iff in Hadm. apply betterb_iff in Hb. rewrite Hadm, Hb in Hall. discriminate.
  - intros [sp [Hin [Ha Hall]]]. exists sp. split; [auto|]. apply andb_true_iff. split; [apply admits_byb_iff; auto|].
    apply forallb_forall. intros o Ho. apply forallb_forall. intros sp' Hsp'.
    apply negb_true_iff. destruct (admits_byb sp' o) eqn:E1; [|reflexivity].
    destruct (betterb sp' sp) eqn:E2; [|reflexivity].
    exfalso. apply (Hall o sp' Ho Hsp'); [apply admits_byb_iff|apply betterb_iff]; auto.
Qed.
Lemma mem_iff t l : mem t l = true <-> In t l.
Proof.
  unfold mem. rewrite existsb_exists. split.
  - intros [x [H1 H2]]. apply bytes_eqb_eq in H2. subst. auto.
  - intros H. exists t. split; auto. apply bytes_eqb_refl.
Qed.

(* the switch of the loop body, restated with the reading's vocabulary *)
Definition ct_step' (offer : bytes) (s : cst) (sp : spec) : cst :=
  if negb (Qeq_bool (sq sp) 0%Q) && matches (sval sp) offer && negb (qltb (sq sp) (bq s))
     && (qltb (bq s) (sq sp) || Nat.ltb (wild (sval sp)) (bw s))
  then mkcst (sq sp) (wild (sval sp)) offer else s.

Lemma ct_step_eq offer s sp : ct_step offer s sp = ct_step' offer s sp.
Proof.
  unfold ct_step, ct_step', matches, wild.
  destruct (Qeq_bool (sq sp) 0%Q); cbn [negb andb]; [reflexivity|].
  destruct (qltb (sq sp) (bq s)); cbn [negb andb].
  - rewrite andb_false_r. reflexivity.
  - rewrite andb_true_r.
    destruct (bytes_eqb (sval sp) star_star); [reflexivity|].
    destruct (has_suffix slash_star (sval sp)).
    + rewrite removelast_firstn_len, <- Nat.sub_1_r. reflexivity.
    + reflexivity.
Qed.

Definition cand (o : bytes) (sp : spec) : bool := negb (Qeq_bool (sq sp) 0%Q) && matches (sval sp) o.

Lemma cand_admits o sp : (0 <= sq sp)%Q -> (cand o sp = true <-> admits_by sp o).
Proof.
  intros Hq. unfold cand, admits_by. rewrite andb_true_iff, negb_true_iff, qeqb_neq. split.
  - intros [H1 H2]. split; auto. destruct (Qlt_le_dec 0 (sq sp)) as [L|L]; auto.
    exfalso. apply H1. apply Qle_antisym; auto.
  - intros [H1 H2]. split; auto. intros E. rewrite E in H1. apply (Qlt_irrefl _ H1).
Qed.

(* against a state that holds a pair, the test of the switch is `better` *)
Lemma step_cond_better sp sp0 :
  negb (qltb (sq sp) (sq sp0)) && (qltb (sq sp0) (sq sp) || Nat.ltb (wild (sval sp)) (wild (sval sp0)))
  = betterb sp sp0.
Proof.
  unfold betterb. apply Bool.eq_true_iff_eq.
  rewrite andb_true_iff, !orb_true_iff, andb_true_iff, negb_true_iff, qltb_ge, !qltb_lt, Qeq_bool_iff, Nat.ltb_lt.
  split; [intros [L [H|H]]; [left; exact H|]|intros [H|[E H]]; (split; [lra|auto])].
  destruct (Qlt_le_dec (sq sp0) (sq sp)); [left; auto|right; split; [lra|exact H]].
Qed.

Lemma ct_step'_better o sp o0 sp0 :
  ct_step' o (mkcst (sq sp0) (wild (sval sp0)) o0) sp =
  if cand o sp && betterb sp sp0 then mkcst (sq sp) (wild (sval sp)) o else mkcst (sq sp0) (wild (sval sp0)) o0.
Proof. unfold ct_step', cand. cbn [bq bw]. rewrite <- !andb_assoc, step_cond_better. reflexivity. Qed.

Definition pstep (s : cst) (p : bytes * spec) : cst := ct_step' (fst p) s (snd p).

Lemma fold_pairs specs : forall offers s,
  fold_left (fun s o => fold_left (ct_step o) specs s) offers s = fold_left pstep (pairs specs offers) s.
Proof.
  induction offers as [|o offers IH]; intros s; cbn [fold_left pairs flat_map]; [reflexivity|].
  rewrite fold_left_app. rewrite IH. f_equal.
  clear IH. revert s. induction specs as [|sp specs IHs]; intros s; cbn [fold_left map]; [reflexivity|].
  rewrite IHs. unfold pstep at 2. cbn [fst snd]. rewrite ct_step_eq. reflexivity.
Qed.

Lemma in_pairs specs offers o sp : In (o, sp) (pairs specs offers) <-> In o offers /\ In sp specs.
Proof.
  unfold pairs. rewrite in_flat_map. split.
  - intros [o' [Ho H]]. apply in_map_iff in H. destruct H as [sp' [E Hs]]. inversion E; subst. auto.
  - intros [Ho Hs]. exists o. split; auto. apply in_map_iff. exists sp. auto.
Qed.

Lemma better_irrefl a : ~ better a a.
Proof. unfold better. intros [L|[_ L]]; [apply (Qlt_irrefl _ L)|lia]. Qed.
Lemma better_trans a b c : better a b -> better b c -> better a c.
Proof.
  unfold better. intros [L|[L W]] [L'|[L' W']].
  - left; lra.
  - left; lra.
  - left; lra.
  - right; split; [lra|lia].
Qed.
Lemma better_asym a b : better a b -> ~ better b a.
Proof. intros H H'. apply (better_irrefl a). eapply better_trans; eauto. Qed.
(* (q, specificity) is a strict weak order *)
Lemma better_negtrans a b c : better a b -> ~ better c b -> better a c.
Proof.
  unfold better. intros Hab Hcb.
  destruct (Qlt_le_dec (sq c) (sq a)) as [L|L]; [left; auto|].
  destruct Hab as [L1|[L1 W1]].
  - exfalso. apply Hcb. left. lra.
  - destruct (Qlt_le_dec (sq b) (sq c)) as [L2|L2]; [exfalso; apply Hcb; left; auto|].
    right. split; [lra|].
    destruct (Nat.lt_ge_cases (wild (sval a)) (wild (sval c))) as [W|W]; auto.
    exfalso. apply Hcb. right. split; [lra|lia].
Qed.

(* invariant of the loop over a processed prefix P of the pairs: the state is the FIRST pair of P
   that is maximal in the (q, specificity) order *)
Definition inv2 (def : bytes) (P : list (bytes * spec)) (s : cst) : Prop :=
  ((forall o sp, In (o, sp) P -> cand o sp = false) /\ s = mkcst (-1)%Q 3 def) \/
  (exists P1 P2 o sp, P = P1 ++ (o, sp) :: P2 /\ cand o sp = true /\ s = mkcst (sq sp) (wild (sval sp)) o /\
     (forall o' sp', In (o', sp') P1 -> cand o' sp' = true -> better sp sp') /\
     (forall o' sp', In (o', sp') P2 -> cand o' sp' = true -> ~ better sp' sp)).

Lemma inv2_step def P s p :
  (0 <= sq (snd p))%Q -> inv2 def P s -> inv2 def (P ++ [p]) (pstep s p).
Proof.
  intros Hq Hinv. destruct p as [o sp]. unfold pstep. cbn [fst snd] in *.
  destruct Hinv as [[Hno Hs]|(P1 & P2 & o0 & sp0 & HP & Hc0 & Hs & H1 & H2)]; subst s.
  - (* no candidate yet: the first one is taken, its q being above the initial -1 *)
    unfold ct_step'. fold (cand o sp). cbn [bq bw]. destruct (cand o sp) eqn:Hc; cbn [andb].
    + replace (qltb (sq sp) (-1)%Q) with false by (symmetry; apply qltb_ge; lra).
      replace (qltb (-1)%Q (sq sp)) with true by (symmetry; apply qltb_lt; lra). cbn [negb andb orb].
      right. exists P, [], o, sp. split; [auto|]. split; [auto|]. split; [auto|]. split.
      * intros o' sp' H Hc'. rewrite (Hno _ _ H) in Hc'. discriminate.
      * intros o' sp' [].
    + left. split; auto. intros o' sp' H. apply in_app_or in H. destruct H as [H|[H|[]]]; [auto|].
      inversion H; subst; auto.
  - subst P. rewrite ct_step'_better. destruct (cand o sp && betterb sp sp0) eqn:E.
    + (* strictly better: taken; everything before it is strictly worse *)
      apply andb_true_iff in E. destruct E as [Hc Hb]. apply betterb_iff in Hb.
      right. exists (P1 ++ (o0, sp0) :: P2), [], o, sp. split; [auto|]. split; [auto|]. split; [auto|]. split.
      * intros o' sp' H Hc'. apply in_app_or in H. destruct H as [H|[H|H]].
        -- eapply better_trans; eauto.
        -- inversion H; subst. exact Hb.
        -- eapply better_negtrans; eauto.
      * intros o' sp' [].
    + (* passed over: it joins the pairs after the holder, none of which is better *)
      right. exists P1, (P2 ++ [(o, sp)]), o0, sp0. split; [rewrite <- app_assoc; reflexivity|]. do 3 (split; [auto|]).
      intros o' sp' H Hc'. apply in_app_or in H. destruct H as [H|[[= <- <-]|[]]]; [eauto|].
      intros Hb. apply betterb_iff in Hb. rewrite Hc', Hb in E. discriminate.
Qed.

Lemma inv2_fold def : forall Q P s,
  (forall p, In p Q -> (0 <= sq (snd p))%Q) ->
  inv2 def P s -> inv2 def (P ++ Q) (fold_left pstep Q s).
Proof.
  induction Q as [|p Q IH]; intros P s Hnn Hinv; cbn [fold_left].
  - rewrite app_nil_r. exact Hinv.
  - replace (P ++ p :: Q) with ((P ++ [p]) ++ Q) by (rewrite <- app_assoc; reflexivity).
    apply IH; [intros p' H; apply Hnn; right; exact H|]. apply inv2_step; [apply Hnn; left; reflexivity|exact Hinv].
Qed.

Lemma nonneg_in specs sp : nonneg specs -> In sp specs -> (0 <= sq sp)%Q.
Proof. intros Hnn. apply (proj1 (Forall_forall _ _) Hnn). Qed.

(* Nothing admitted: the default. Otherwise, ties included: the choice is the FIRST pair, in the loop's
   iteration order (offers outer, ranges inner), that is maximal: every admitting pair before it is
   strictly worse, none after it is better. *)
Lemma ct_final_cases specs offers def : nonneg specs ->
  let r := negotiate_content_type specs offers def in
  (~ (exists o, In o offers /\ admits specs o) /\ r = def) \/
  (exists P1 P2 sp, pairs specs offers = P1 ++ (r, sp) :: P2 /\ In r offers /\ In sp specs /\ admits_by sp r /\
     (forall o' sp', In (o', sp') P1 -> admits_by sp' o' -> better sp sp') /\
     (forall o' sp', In (o', sp') P2 -> admits_by sp' o' -> ~ better sp' sp)).
Proof.
  intros Hnn. cbv zeta. unfold negotiate_content_type, ct_final. rewrite fold_pairs.
  assert (Hc : forall o sp, In (o, sp) (pairs specs offers) -> (cand o sp = true <-> admits_by sp o)).
  { intros o sp H. apply cand_admits. eapply nonneg_in; [exact Hnn|]. apply in_pairs in H. apply H. }
  destruct (inv2_fold def (pairs specs offers) [] (mkcst (-1)%Q 3 def)) as [[Hno ->]|(P1 & P2 & o0 & sp0 & HP & Hc0 & -> & H1 & H2)].
  - intros [o sp] H. apply in_pairs in H. eapply nonneg_in; [exact Hnn|apply H].
  - left. split; auto. intros o sp [].
  - left. split; [|reflexivity]. intros (o & Ho & sp & Hsp & Ha).
    assert (Hin : In (o, sp) (pairs specs offers)) by (apply in_pairs; auto).
    apply (Hc _ _ Hin) in Ha. rewrite (Hno o sp Hin) in Ha. discriminate.
  - cbn [app bo] in *. right. exists P1, P2, sp0. rewrite HP in Hc. split; [exact HP|].
    destruct (proj1 (in_pairs specs offers o0 sp0)) as [Ho Hs]; [rewrite HP; apply in_elt|]. do 2 (split; [assumption|]).
    split; [apply Hc; [apply in_elt|exact Hc0]|].
    split; intros o' sp' H Ha; [apply (H1 o' sp' H)|apply (H2 o' sp' H)]; apply Hc; auto with datatypes.
Qed.

Lemma negotiate_first specs offers def : nonneg specs ->
  (exists o, In o offers /\ admits specs o) ->
  exists P1 P2 sp, pairs specs offers = P1 ++ (negotiate_content_type specs offers def, sp) :: P2 /\
    admits_by sp (negotiate_content_type specs offers def) /\
    (forall o' sp', In (o', sp') P1 -> admits_by sp' o' -> better sp sp') /\
    (forall o' sp', In (o', sp') P2 -> admits_by sp' o' -> ~ better sp' sp).
Proof.
  intros Hnn Hex. destruct (ct_final_cases specs offers def Hnn) as [[Hn _]|(P1 & P2 & sp & HP & _ & _ & H)]; [contradiction|].
  exists P1, P2, sp. split; assumption.
Qed.

(* nothing admitted: the default; something admitted: an admitted offer *)
Lemma negotiate_admitted specs offers def : nonneg specs ->
  let r := negotiate_content_type specs offers def in
  ((exists o, In o offers /\ admits specs o) -> In r offers /\ admits specs r) /\
  (~ (exists o, In o offers /\ admits specs o) -> r = def).
Proof.
  intros Hnn. destruct (ct_final_cases specs offers def Hnn) as [[Hn E]|(P1 & P2 & sp & _ & Ho & Hsp & Ha & _)]; cbv zeta.
  - split; [contradiction|auto].
  - assert (A : admits specs (negotiate_content_type specs offers def)) by (exists sp; auto).
    split; [auto|]. intros Hn. destruct Hn. eauto.
Qed.

(* the choice is best in the order the code implements: higher q, then exact < type/* < */* *)
Lemma negotiate_best specs offers def : nonneg specs ->
  (exists o, In o offers /\ admits specs o) ->
  best_choice specs offers (negotiate_content_type specs offers def).
Proof.
  intros Hnn Hex.
  destruct (ct_final_cases specs offers def Hnn) as [[Hn _]|(P1 & P2 & sp & HP & _ & Hs & Ha & H1 & H2)]; [contradiction|].
  exists sp. split; [exact Hs|]. split; [exact Ha|].
  intros o sp' Ho Hsp Ha'. assert (H : In (o, sp') (pairs specs offers)) by (apply in_pairs; auto).
  rewrite HP in H. destruct (in_app_or _ _ _ H) as [H'|[H'|H']].
  - apply better_asym. eauto.
  - inversion H'; subst. apply better_irrefl.
  - eauto.
Qed.

Lemma exists_admits_iff specs offers :
  existsb (admitsb specs) offers = true <-> exists o, In o offers /\ admits specs o.
Proof. rewrite existsb_exists. split; intros [o [Ho Ha]]; exists o; (split; [exact Ho|apply admitsb_iff, Ha]). Qed.

Lemma choice_ok_iff specs offers def r :
  choice_ok specs offers def r = true <->
  ((exists o, In o offers /\ admits specs o) /\ In r offers /\ admits specs r /\ best_choice specs offers r) \/
  (~ (exists o, In o offers /\ admits specs o) /\ r = def).
Proof.
  unfold choice_ok.
  destruct (existsb (admitsb specs) offers) eqn:E.
  - apply exists_admits_iff in E.
    rewrite !andb_true_iff, mem_iff, admitsb_iff, best_choiceb_iff. split.
    + intros [[H1 H2] H3]. left. auto.
    + intros [[_ [H1 [H2 H3]]]|[Hn _]]; [auto|contradiction].
  - assert (Hn : ~ (exists o, In o offers /\ admits specs o)) by (rewrite <- exists_admits_iff; congruence).
    rewrite bytes_eqb_eq. split; [auto|]. intros [[Hex _]|[_ H]]; [contradiction|exact H].
Qed.

(* the model's choice passes the reading's decision procedure *)
Lemma negotiate_choice_ok specs offers def : nonneg specs ->
  choice_ok specs offers def (negotiate_content_type specs offers def) = true.
Proof.
  intros Hnn. apply choice_ok_iff.
  destruct (negotiate_admitted specs offers def Hnn) as [H1 H2].
  destruct (existsb (admitsb specs) offers) eqn:E.
  - apply exists_admits_iff in E. left. destruct (H1 E) as [A B]. auto using negotiate_best.
  - right. split; [|apply H2]; rewrite <- exists_admits_iff; congruence.
Qed.

(* the result is always an offer or the default (used by the response path: encError's codec exists) *)
Lemma negotiate_in specs offers def : nonneg specs ->
  In (negotiate_content_type specs offers def) offers \/ negotiate_content_type specs offers def = def.
Proof.
  intros Hnn. destruct (ct_final_cases specs offers def Hnn) as [[_ E]|(P1 & P2 & sp & _ & Ho & _)]; [right; exact E|left; exact Ho].
Qed.

Lemma enc_inner offers o specs : forall s,
  (ebo s = identity \/ In (ebo s) offers) -> In o offers ->
  let s' := fold_left (enc_step o) specs s in ebo s' = identity \/ In (ebo s') offers.
Proof.
  induction specs as [|sp specs IH]; intros s Hs Ho; cbn [fold_left]; auto.
  apply IH; auto. unfold enc_step.
  destruct (qltb (ebq s) (sq sp) && (bytes_eqb (sval sp) star || bytes_eqb (sval sp) o)); cbn [ebo]; auto.
Qed.

Lemma enc_outer specs offers0 : forall offers s,
  (forall o, In o offers -> In o offers0) ->
  (ebo s = identity \/ In (ebo s) offers0) ->
  let s' := fold_left (fun s o => fold_left (enc_step o) specs s) offers s in ebo s' = identity \/ In (ebo s') offers0.
Proof.
  induction offers as [|o offers IH]; intros s Hsub Hs; cbn [fold_left]; auto.
  apply IH.
  - intros o' H. apply Hsub. right; auto.
  - apply enc_inner; auto. apply Hsub. left; auto.
Qed.

Lemma negotiate_encoding_in specs offers :
  let r := negotiate_encoding specs offers in r = [] \/ r = identity \/ In r offers.
Proof.
  cbn zeta. unfold negotiate_encoding.
  destruct (Qeq_bool _ _); [left; reflexivity|right].
  apply (enc_outer specs offers offers (mkest (-1)%Q identity)); auto.
Qed.

Lemma parse_accept_total_hdr : forall values : list bytes,
  no_crash (parse_accept values) /\ exists specs, parse_accept values = Ok specs /\ nonneg specs.
Proof.
  intros values. destruct (parse_accept_ok values) as [l [H Hn]]. rewrite H. split; [exact I|eauto].
Qed.
