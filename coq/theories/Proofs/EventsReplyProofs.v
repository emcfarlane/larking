(* Proofs about Model/Events.v (C18): interceptors that answer with a message of their own
   (modes IReplace, IAnswer). *)
From Larking Require Import Base.GoSem Spec.EventsSpec Model.Events Proofs.EventsProofs.
Local Open Scope nat_scope.

(* SendMsg either writes the message and returns nil, or (gRPC, call cancelled) changes nothing and
   returns Canceled -- whatever the message is *)
Lemma send_cases c s :
  (forall p, exists e s', do_send c p s = Ok (e, s', ROk) /\ outm s' = outm s ++ [p] /\ hlog s' = hlog s /\ dlv s' = dlv s)
  \/ (forall p, do_send c p s = Ok ([], s, RErr 1)).
Proof.
  destruct (c_http c) eqn:HT.
  - left. intros p. apply send_ok. left; exact HT.
  - destruct (done s) eqn:DN.
    + right. intros p. unfold do_send, grpc_send. rewrite HT, DN. reflexivity.
    + left. intros p. apply send_ok. right; exact DN.
Qed.

Lemma unary_call sc pre reply final : s_hs sc = HUnary pre reply final -> the_call sc = IUnary (s_name sc).
Proof. intros HS. unfold the_call. rewrite HS. reflexivity. Qed.

(* the result of the whole RPC once the request message is decoded: one log entry (the decode), one
   delivered message, m sent, OK *)
Lemma answer_result sc r pre reply final m :
  serve false sc = Ok r -> s_routed sc = true -> s_hs sc = HUnary pre reply final ->
  eff_mode sc = IAnswer m -> first_ok sc = true ->
  r_replies r = [m] /\ r_status r = Some 0 /\ r_iret r = Some 0 /\ r_herr r = 0 /\ r_hlog r = [ROk].
Proof.
  intros E R HS M F. destruct (serve_routed _ _ _ E R) as (e & s & herr & ir & H & ->).
  cbn [r_iret r_replies r_status r_herr r_hlog].
  rewrite HS, M in H. cbn [handler] in H. rewrite unary_handler_eq in H.
  destruct (recv_first sc) as (e1 & s1 & x & H1 & FX & O1 & D1 & L1). rewrite H1 in H.
  apply FX in F. subst x. cbn [bind icpt_phase Nat.eqb] in H.
  destruct (send_ok (cfg_of false sc) m s1) as (e3 & s3 & H3 & O3 & L3 & _); [right; exact D1|].
  rewrite H3 in H. inversion H; subst. rewrite O3, O1, L3, L1. repeat split.
Qed.

(* the handler's script plays no part: replacing it by any other unary script gives the same result
   (calls, events, replies, status, the handler-side log) *)
Theorem answer_ignores_script sc m pre reply final pre' reply' final' :
  eff_mode sc = IAnswer m -> s_hs sc = HUnary pre reply final ->
  serve false (set_hs (HUnary pre' reply' final') sc) = serve false sc.
Proof.
  intros M HS. rewrite !serve_eq. unfold the_call.
  change (eff_mode (set_hs (HUnary pre' reply' final') sc)) with (eff_mode sc). rewrite HS, M. reflexivity.
Qed.

Theorem answer_skips_handler sc m pre reply final :
  s_icpt sc = true -> s_imode sc = IAnswer m -> s_hs sc = HUnary pre reply final ->
  (forall pre' reply' final', serve false (set_hs (HUnary pre' reply' final') sc) = serve false sc) /\
  (forall r, serve false sc = Ok r -> s_routed sc = true -> first_ok sc = true ->
     r_hlog r = [ROk] /\ r_iret r = Some 0 /\ r_status r = Some 0 /\ r_replies r = [m]).
Proof.
  intros IC IM HS. assert (M : eff_mode sc = IAnswer m) by (unfold eff_mode; now rewrite IC).
  split.
  - intros pre' reply' final'. eapply answer_ignores_script; eauto.
  - intros r E R F. destruct (answer_result _ _ _ _ _ _ E R HS M F) as (A & B & C & _ & D). repeat split; assumption.
Qed.

(* IReplace against the same RPC with a pass-through interceptor: the interceptor returns the same
   error (the handler's), the client gets the same status, the handler sees the same, and wherever
   the pass-through run delivers the handler's reply this one delivers m *)
Theorem replace_follows_handler sc m pre reply final :
  eff_mode sc = IReplace m -> s_hs sc = HUnary pre reply final ->
  exists r r0, serve false sc = Ok r /\ serve false (set_imode IPass sc) = Ok r0 /\
    r_iret r = r_iret r0 /\ r_status r = r_status r0 /\ r_herr r = r_herr r0 /\
    r_hlog r = r_hlog r0 /\ r_dlv r = r_dlv r0 /\ r_calls r = r_calls r0 /\
    r_replies r = map (fun _ => m) (r_replies r0) /\
    (r_replies r0 = [] \/ r_replies r0 = [reply]).
Proof.
  intros M HS.
  assert (IC : s_icpt sc = true) by (unfold eff_mode in M; destruct (s_icpt sc); [reflexivity|discriminate]).
  rewrite serve_eq.
  change (serve false (set_imode IPass sc))
    with (respond (s_routed sc) (is_http (s_proto sc)) (cfg_of false sc) (s_name sc) (if s_icpt sc then [the_call sc] else [])
            (handler (cfg_of false sc) (if s_icpt sc then IPass else IPass) (s_hs sc) (st0 sc))).
  rewrite IC, M, HS. unfold respond. destruct (s_routed sc); cbn [negb].
  2:{ eexists; eexists. split; [reflexivity|]. split; [reflexivity|]. cbn. repeat split; auto. }
  cbn [handler]. rewrite !unary_handler_eq.
  destruct (recv_first sc) as (e1 & s1 & x & H1 & FX & O1 & D1 & L1). rewrite H1. cbn [bind].
  destruct x as [| |kx].
  2,3: eexists; eexists; (split; [reflexivity|]); (split; [reflexivity|]); cbn; rewrite O1; repeat split; auto.
  unfold icpt_phase.
  destruct (run_acts_good (cfg_of false sc) (filter unary_act pre) final s1 eq_refl) as (e2 & s2 & code & U & _).
  pose proof (U (s_stats sc)) as H2. rewrite <- cfg_of_stats in H2. rewrite H2. cbn [bind].
  destruct (unary_acts_keep _ _ _ _ _ _ _ H2) as [O2 _]. rewrite O1 in O2.
  destruct (Nat.eqb code 0) eqn:EC.
  - destruct (send_cases (cfg_of false sc) s2) as [SC|SC].
    + destruct (SC m) as (e3 & s3 & H3 & O3 & L3 & V3). destruct (SC reply) as (e4 & s4 & H4 & O4 & L4 & V4).
      rewrite H3, H4. eexists; eexists. split; [reflexivity|]. split; [reflexivity|]. cbn.
      rewrite O3, O4, O2, L3, L4, V3, V4. cbn. repeat split; auto.
    + rewrite (SC m), (SC reply). eexists; eexists. split; [reflexivity|]. split; [reflexivity|]. cbn.
      rewrite O2. repeat split; auto.
  - eexists; eexists. split; [reflexivity|]. split; [reflexivity|]. cbn. rewrite O2. repeat split; auto.
Qed.

(* "the handler succeeds" is said through the same RPC with a pass-through interceptor: there the
   interceptor layer returns a nil error. On gRPC SendMsg refuses once the call is cancelled, so a
   handler that is called must not have cancelled the call (as in once_unary for IPass). *)
Theorem interceptor_reply_is_delivered sc r pre reply final m :
  serve false sc = Ok r -> s_routed sc = true -> s_icpt sc = true ->
  s_hs sc = HUnary pre reply final -> first_ok sc = true ->
  (s_imode sc = IAnswer m \/
   (s_imode sc = IReplace m /\
    (exists r0, serve false (set_imode IPass sc) = Ok r0 /\ r_iret r0 = Some 0) /\
    (s_proto sc = PHttp \/ no_cancel pre = true))) ->
  r_replies r = [m] /\ r_status r = Some 0 /\ r_iret r = Some 0 /\
  r_calls r = [IUnary (s_name sc)] /\
  calls_ok true (s_name sc) (s_cs sc) (s_ss sc) (r_calls r) = true.
Proof.
  intros E R IC HS F MD.
  assert (EM : eff_mode sc = s_imode sc) by (unfold eff_mode; now rewrite IC).
  assert (K : r_replies r = [m] /\ r_status r = Some 0 /\ r_iret r = Some 0).
  { destruct MD as [IM|(IM & (r0 & E0 & I0) & HC)].
    - rewrite <- EM in IM. destruct (answer_result _ _ _ _ _ _ E R HS IM F) as (A & B & C & _). repeat split; assumption.
    - rewrite <- EM in IM.
      destruct (replace_follows_handler sc m pre reply final IM HS) as (r1 & r2 & E1 & E2 & A & _).
      rewrite E in E1. inversion E1; subst r1. rewrite E0 in E2. inversion E2; subst r2. rewrite I0 in A.
      destruct (once_unary _ _ _ _ _ E R HS) as [_ B]. destruct (B F) as (k & IK & _ & Z).
      rewrite A in IK. inversion IK; subst k.
      destruct (Z eq_refl) as [ST RP]; [destruct HC as [HC|HC]; [left; exact HC|right; left; exact HC]|].
      rewrite IM in RP. cbn [reply_of] in RP. repeat split; assumption. }
  destruct K as (A & B & C). repeat split; try assumption.
  - destruct (calls_shape _ _ E R) as [CS _]. rewrite CS, C, IC, (unary_call _ _ _ _ HS). reflexivity.
  - destruct (once _ _ E R IC) as [CO _]. rewrite HS in CO. apply CO. rewrite C. discriminate.
Qed.

(* a handler that neither cancels nor touches the header and ends with OK succeeds, on every protocol *)
Corollary replace_delivered_plain sc r pre reply final m :
  serve false sc = Ok r -> s_routed sc = true -> s_icpt sc = true -> s_imode sc = IReplace m ->
  s_hs sc = HUnary pre reply final -> first_ok sc = true ->
  filter unary_act pre = [] -> final = 0 ->
  r_replies r = [m] /\ r_status r = Some 0 /\ r_iret r = Some 0 /\ r_calls r = [IUnary (s_name sc)].
Proof.
  intros E R IC IM HS F NP FZ.
  assert (NC : no_cancel pre = true).
  { clear - NP. induction pre as [|a pre IH]; [reflexivity|]. destruct a; cbn in *; try discriminate; auto. }
  assert (EM : eff_mode sc = IReplace m) by (unfold eff_mode; now rewrite IC).
  destruct (replace_follows_handler sc m pre reply final EM HS) as (r1 & r0 & E1 & E0 & A & _).
  rewrite E in E1. inversion E1; subst r1.
  assert (I0 : r_iret r0 = Some 0).
  { assert (R0 : s_routed (set_imode IPass sc) = true) by exact R.
    assert (HS0 : s_hs (set_imode IPass sc) = HUnary pre reply final) by exact HS.
    destruct (serve_routed _ _ _ E0 R0) as (e & s & herr & ir & H & ->). cbn [r_iret].
    rewrite HS0 in H. cbn [handler] in H. unfold unary_handler in H.
    destruct (recv_first (set_imode IPass sc)) as (e1 & s1 & x & H1 & FX & _). rewrite H1 in H.
    assert (F0 : first_ok (set_imode IPass sc) = true) by exact F. apply FX in F0. subst x.
    assert (M0 : eff_mode (set_imode IPass sc) = IPass) by (unfold eff_mode; cbn; rewrite IC; reflexivity).
    rewrite M0, NP, FZ in H. cbn [run_acts] in H. cbn iota beta in H. cbn [Nat.eqb] in H.
    destruct (do_send _ reply s1) as [[[e3 s3] r3]| | |]; try discriminate. now inversion H. }
  destruct (interceptor_reply_is_delivered sc r pre reply final m E R IC HS F) as (X1 & X2 & X3 & X4 & _).
  { right. split; [exact IM|]. split; [exists r0; split; assumption|right; exact NC]. }
  repeat split; assumption.
Qed.
