(* Removal of a method's rules from the routing trie (Model/TrieDel.v: path.delRule, path.alive):
   what is stored where afterwards (content), no dead nodes, the invariants of built tries carried to
   the bindings of the other methods, and the routing statements: the removed method is never served,
   the search stays total, and removal = never having registered (the trie routes every request as
   the trie built from the other methods' bindings alone).
   The association lists of the model stand for Go maps: the content statements assume that keys are
   keys (KeysND / Uq), which registration establishes and removal preserves. *)
From Larking Require Import Base.GoSem Model.Lexer Model.Trie Model.Match Model.TrieDel Spec.Grammar Spec.Route
  Proofs.LexerProofs Proofs.MatchProofs Proofs.TrieProofs Proofs.RoutingProofs Proofs.OrderProofs Proofs.AcceptProofs.
From Coq Require Import Sorting.Sorted Permutation.
Local Open Scope N_scope.

Section NodeInd.
Variable P : node -> Prop.
Hypothesis Hstep : forall segs vars meths mall,
  (forall k c, In (k, c) segs -> P c) -> (forall p c, In (p, c) vars -> P c) -> P (Node segs vars meths mall).
Lemma node_induction : forall nd, P nd.
Proof.
  fix IH 1. intros [segs vars meths mall]. apply Hstep.
  - induction segs as [|[k0 c0] r IHr]; intros k c Hin.
    + destruct Hin.
    + destruct Hin as [E|Hin].
      * injection E as _ E2. rewrite <- E2. apply IH.
      * exact (IHr k c Hin).
  - induction vars as [|[k0 c0] r IHr]; intros k c Hin.
    + destruct Hin.
    + destruct Hin as [E|Hin].
      * injection E as _ E2. rewrite <- E2. apply IH.
      * exact (IHr k c Hin).
Qed.
End NodeInd.
Ltac node_ind := match goal with |- forall nd : node, @?P nd => apply (node_induction P); cbv beta end.

Lemma map_all_id {A} (f : A -> A) l : (forall x, In x l -> f x = x) -> map f l = l.
Proof. intros H. rewrite <- (map_id l) at 2. now apply map_ext_in. Qed.

(* no dead nodes: HasB = some binding at or below; Live = every node below the root has one *)
Inductive HasB : node -> Prop :=
| HasB_meth segs vars meths mall : meths <> [] -> HasB (Node segs vars meths mall)
| HasB_mall segs vars meths m : HasB (Node segs vars meths (Some m))
| HasB_seg segs vars meths mall k c : In (k, c) segs -> HasB c -> HasB (Node segs vars meths mall)
| HasB_var segs vars meths mall p c : In (p, c) vars -> HasB c -> HasB (Node segs vars meths mall).
Inductive Live : node -> Prop :=
| Live_intro segs vars meths mall :
    (forall k c, In (k, c) segs -> HasB c /\ Live c) ->
    (forall p c, In (p, c) vars -> HasB c /\ Live c) ->
    Live (Node segs vars meths mall).

Lemma HasB_alive nd : HasB nd -> alive nd = true.
Proof.
  intros H.
  destruct H as [segs vars meths mall Hm|segs vars meths m|segs vars meths mall k c Hin Hc|segs vars meths mall p c Hin Hc];
    unfold alive; cbn [n_meths n_mall n_vars n_segs].
  - destruct meths; [congruence|reflexivity].
  - destruct meths; reflexivity.
  - destruct meths, mall, vars, segs; try reflexivity; contradiction.
  - destruct meths, mall, vars, segs; try reflexivity; contradiction.
Qed.
Lemma alive_HasB nd : Live nd -> alive nd = true -> HasB nd.
Proof.
  intros HL Ha. inversion HL as [segs vars meths mall L1 L2]; subst.
  destruct meths as [|x ms]; [|apply HasB_meth; discriminate].
  destruct mall as [m|]; [apply HasB_mall|].
  destruct vars as [|[p c] vs]; [|eapply HasB_var; [now left|]; apply (L2 p c); now left].
  destruct segs as [|[k c] ss]; [cbn in Ha; discriminate|].
  eapply HasB_seg; [now left|]. apply (L1 k c); now left.
Qed.
Lemma Live_Reach nd es n : Reach nd es n -> Live nd -> Live n /\ (es <> [] \/ HasB nd -> HasB n).
Proof.
  induction 1 as [nd|nd key c es nd' Ha HR IH|nd pat c es nd' Hin HR IH]; intros HL.
  - split; [exact HL|]. intros [H|H]; [contradiction|exact H].
  - inversion HL as [s v ms a L1 L2]; subst. cbn [n_segs] in Ha.
    destruct (L1 key c (assoc_in _ _ _ Ha)) as [Hb Hl]. destruct (IH Hl) as [A B]. auto.
  - inversion HL as [s v ms a L1 L2]; subst. cbn [n_vars] in Hin.
    destruct (L2 pat c Hin) as [Hb Hl]. destruct (IH Hl) as [A B]. auto.
Qed.

Lemma child_Live e nd c : child_at e nd = Some c -> Live nd -> HasB c /\ Live c.
Proof.
  intros H HL. inversion HL as [s v ms a L1 L2]; subst. destruct e as [k|pat]; cbn [child_at n_segs n_vars] in H.
  - exact (L1 k c (assoc_in _ _ _ H)).
  - destruct (find_var_in _ _ _ H) as (p' & Hin & _). exact (L2 p' c Hin).
Qed.
Lemma child_HasB e nd c : child_at e nd = Some c -> HasB c -> HasB nd.
Proof.
  destruct nd as [segs vars meths mall], e as [k|pat]; cbn [child_at n_segs n_vars]; intros H Hb.
  - eapply HasB_seg; [apply (assoc_in _ _ _ H)|exact Hb].
  - destruct (find_var_in _ _ _ H) as (p' & Hin & _). eapply HasB_var; eauto.
Qed.

Lemma stored_HasB n key m : stored (info n) key m -> HasB n.
Proof.
  destruct n as [segs vars meths mall]. unfold stored, info. cbn [fst snd n_meths n_mall].
  intros [[_ H]|H]; [subst mall; apply HasB_mall|]. apply HasB_meth. intros ->. discriminate.
Qed.
Lemma walk_HasB es : forall n0 n2, walk_to es n0 = Some n2 -> HasB n2 -> HasB n0.
Proof.
  induction es as [|e es IH]; intros n0 n2 H Hb; [now injection H as <-|]. rewrite walk_cons in H.
  destruct (child_at e n0) as [c|] eqn:Ec; [|discriminate]. exact (child_HasB e n0 c Ec (IH c n2 H Hb)).
Qed.
Lemma Live_walk es : forall nd n, walk_to es nd = Some n -> Live nd -> Live n /\ (es <> [] \/ HasB nd -> HasB n).
Proof.
  induction es as [|e es IH]; intros nd n H HL; rewrite ?walk_cons in H.
  - injection H as <-. split; [exact HL|]. intros [X|X]; [contradiction|exact X].
  - destruct (child_at e nd) as [c|] eqn:Ec; [|discriminate].
    destruct (child_Live e nd c Ec HL) as [Hb Hl]. destruct (IH c n H Hl) as [A B]. auto.
Qed.

(* keys are keys: the association lists model Go maps, variables have distinct names *)
Inductive Uq : node -> Prop :=
| Uq_intro segs vars meths mall :
    NoDup (map fst segs) -> NoDup (map vname vars) -> NoDup (map fst meths) ->
    (forall k c, In (k, c) segs -> Uq c) -> (forall p c, In (p, c) vars -> Uq c) ->
    Uq (Node segs vars meths mall).

(* variables are found by name: keyed by name, the variable children are an association list *)
Definition vkey (pn : list token * node) : str * node := (vname pn, snd pn).
Lemma find_var_assoc nm l : find_var nm l = assoc nm (map vkey l).
Proof. induction l as [|[p n] l IH]; [reflexivity|]. cbn [find_var map vkey assoc vname fst snd]. now rewrite IH. Qed.
Lemma map_fst_vkey l : map fst (map vkey l) = map vname l.
Proof. rewrite map_map. reflexivity. Qed.
Lemma nodup_find_in p c l : NoDup (map vname l) -> In (p, c) l -> find_var (spell p) l = Some c.
Proof.
  intros Hnd Hin. rewrite find_var_assoc. apply nodup_assoc; [now rewrite map_fst_vkey|]. exact (in_map vkey _ _ Hin).
Qed.
Lemma child_Uq e nd c : child_at e nd = Some c -> Uq nd -> Uq c.
Proof.
  intros H HU. inversion HU as [s v ms a U1 U2 U3 U4 U5]; subst. destruct e as [k|pat]; cbn [child_at n_segs n_vars] in H.
  - exact (U4 k c (assoc_in _ _ _ H)).
  - destruct (find_var_in _ _ _ H) as (p' & Hin & _). exact (U5 p' c Hin).
Qed.
Lemma walk_Uq es : forall nd n, Uq nd -> walk_to es nd = Some n -> Uq n.
Proof.
  induction es as [|e es IH]; intros nd n HU H; [now injection H as <-|]. rewrite walk_cons in H.
  destruct (child_at e nd) as [c|] eqn:Ec; [|discriminate]. exact (IH c n (child_Uq e nd c Ec HU) H).
Qed.

Lemma Uq_meths nd : Uq nd -> NoDup (map fst (n_meths nd)).
Proof. now intros []. Qed.

Lemma HasB_walk : forall n, Uq n -> HasB n -> exists es n2 key m, walk_to es n = Some n2 /\ stored (info n2) key m.
Proof.
  intros n HU Hb. revert HU.
  induction Hb as [segs vars meths mall Hm|segs vars meths m|segs vars meths mall k c Hin Hc IH|segs vars meths mall p c Hin Hc IH]; intros HU.
  - destruct meths as [|[v m] ms]; [congruence|]. exists [], (Node segs vars ((v, m) :: ms) mall), v, m. split; [reflexivity|].
    right. cbn. now rewrite str_eqb_refl.
  - exists [], (Node segs vars meths (Some m)), star_verb, m. split; [reflexivity|]. left. auto.
  - inversion HU as [s v ms a U1 U2 U3 U4 U5]; subst. destruct (IH (U4 k c Hin)) as (es & n2 & key & m & Hw & Hs).
    exists (ELit k :: es), n2, key, m. split; [|exact Hs]. cbn [walk_to n_segs]. now rewrite (nodup_assoc k c segs U1 Hin).
  - inversion HU as [s v ms a U1 U2 U3 U4 U5]; subst. destruct (IH (U5 p c Hin)) as (es & n2 & key & m & Hw & Hs).
    exists (EVar p :: es), n2, key, m. split; [|exact Hs]. cbn [walk_to n_vars]. now rewrite (nodup_find_in p c vars U2 Hin).
Qed.

Lemma walk_Live : forall nd, Uq nd -> (forall es n, es <> [] -> walk_to es nd = Some n -> HasB n) -> Live nd.
Proof.
  node_ind. intros segs vars meths mall IHs IHv HU H. inversion HU as [s v ms a U1 U2 U3 U4 U5]; subst. constructor.
  - intros k c Hin. pose proof (nodup_assoc k c segs U1 Hin) as Ea. split.
    + apply (H [ELit k] c); [discriminate|]. cbn [walk_to n_segs]. now rewrite Ea.
    + apply (IHs k c Hin (U4 k c Hin)). intros es n Hne Hw. apply (H (ELit k :: es) n); [discriminate|]. cbn [walk_to n_segs]. now rewrite Ea.
  - intros p c Hin. pose proof (nodup_find_in p c vars U2 Hin) as Ea. split.
    + apply (H [EVar p] c); [discriminate|]. cbn [walk_to n_vars]. now rewrite Ea.
    + apply (IHv p c Hin (U5 p c Hin)). intros es n Hne Hw. apply (H (EVar p :: es) n); [discriminate|]. cbn [walk_to n_vars]. now rewrite Ea.
Qed.

Lemma assoc_filter_none {A : Type} k (f : str * A -> bool) l : assoc k l = None -> assoc k (filter f l) = None.
Proof.
  induction l as [|[k0 v0] r IH]; cbn [assoc filter]; auto.
  destruct (str_eqb k0 k) eqn:E; [discriminate|]. intros H. destruct (f (k0, v0)); cbn [assoc]; [rewrite E|]; auto.
Qed.
Lemma assoc_filter_keep {A : Type} k (v : A) (f : str * A -> bool) l :
  assoc k l = Some v -> f (k, v) = true -> assoc k (filter f l) = Some v.
Proof.
  induction l as [|[k0 v0] r IH]; cbn [assoc filter]; [discriminate|]. intros H Hf.
  destruct (str_eqb k0 k) eqn:E.
  - injection H as ->. apply str_eqb_eq in E. subst k0. rewrite Hf. cbn [assoc]. now rewrite str_eqb_refl.
  - destruct (f (k0, v0)); cbn [assoc]; [rewrite E|]; auto.
Qed.
Lemma assoc_filter_inv {A : Type} k (v : A) (f : str * A -> bool) l :
  NoDup (map fst l) -> assoc k (filter f l) = Some v -> assoc k l = Some v /\ f (k, v) = true.
Proof.
  intros Hnd H. apply assoc_in, filter_In in H. destruct H as [Hin Hf]. split; [exact (nodup_assoc k v l Hnd Hin)|exact Hf].
Qed.

Section Del.
Variable name : str.

Definition dnode (nd : node) : node := fst (del_rule name nd).
Definition dok (nd : node) : bool := snd (del_rule name nd).
Definition keptn (c : node) : bool := negb (dok c) || alive (dnode c).
Definition kept {K : Type} (kc : K * node) : bool := keptn (snd kc).
Definition dmap {K : Type} (kc : K * node) : K * node := (fst kc, dnode (snd kc)).
Definition dany {K : Type} (kc : K * node) : bool := dok (snd kc).

Lemma del_children_cons {K : Type} rec (k : K) c r :
  del_children rec ((k, c) :: r) =
  let '(c', okc) := rec c in
  let '(r', okr) := del_children rec r in
  if okc then (if alive c' then (k, c') :: r' else r', true) else ((k, c') :: r', okr).
Proof. reflexivity. Qed.

(* the loops over children as a filter followed by a map *)
Lemma del_children_eq {K : Type} (l : list (K * node)) :
  del_children (del_rule name) l = (map dmap (filter kept l), existsb dany l).
Proof.
  induction l as [|[k c] r IH]; [reflexivity|].
  rewrite del_children_cons, IH. unfold kept, keptn, dmap, dany, dok, dnode. cbn [filter existsb map fst snd].
  destruct (del_rule name c) as [c' okc] eqn:E. cbn [fst snd].
  destruct okc; cbn [negb orb]; [destruct (alive c')|]; cbn [map fst snd]; rewrite ?E; reflexivity.
Qed.

Definition del_ok_of (segs : list (str * node)) (vars : list (list token * node))
           (meths : list (str * minfo)) (mall : option minfo) : bool :=
  existsb dany segs || existsb dany vars || existsb (fun kv => negb (keep_meth name kv)) meths || snd (del_mall name mall).

Lemma del_rule_eq segs vars meths mall :
  del_rule name (Node segs vars meths mall) =
  (Node (map dmap (filter kept segs)) (map dmap (filter kept vars))
        (filter (keep_meth name) meths) (fst (del_mall name mall)),
   del_ok_of segs vars meths mall).
Proof.
  cbn [del_rule]. rewrite !del_children_eq. unfold del_meths, del_ok_of. destruct (del_mall name mall). reflexivity.
Qed.

Lemma dnode_eq segs vars meths mall :
  dnode (Node segs vars meths mall) =
  Node (map dmap (filter kept segs)) (map dmap (filter kept vars))
       (filter (keep_meth name) meths) (fst (del_mall name mall)).
Proof. unfold dnode. now rewrite del_rule_eq. Qed.
Lemma dok_eq segs vars meths mall : dok (Node segs vars meths mall) = del_ok_of segs vars meths mall.
Proof. unfold dok. now rewrite del_rule_eq. Qed.

Lemma in_dchildren {K : Type} (k : K) c' (l : list (K * node)) :
  In (k, c') (map dmap (filter kept l)) <-> exists c, In (k, c) l /\ c' = dnode c /\ kept (k, c) = true.
Proof.
  rewrite in_map_iff. split.
  - intros ([k0 c0] & E & Hin). apply filter_In in Hin. destruct Hin as [Hin Hk].
    unfold dmap in E. cbn [fst snd] in E. injection E as E1 E2. subst k0 c'. exists c0. auto.
  - intros (c & Hin & -> & Hk). exists (k, c). split; [reflexivity|]. apply filter_In. auto.
Qed.
Lemma dchildren_all {K : Type} (Q : node -> Prop) (l : list (K * node)) :
  (forall k c, In (k, c) l -> Q (dnode c)) -> forall k c', In (k, c') (map dmap (filter kept l)) -> Q c'.
Proof. intros H k c' Hin. apply in_dchildren in Hin. destruct Hin as (c & Hin & -> & _). eauto. Qed.

(* a method that is not in the trie: nothing changes, ok = false; and conversely *)
Inductive NoName : node -> Prop :=
| NoName_intro segs vars meths mall :
    (forall k c, In (k, c) segs -> NoName c) ->
    (forall p c, In (p, c) vars -> NoName c) ->
    (forall v m, In (v, m) meths -> m_id m <> name) ->
    (forall m, mall = Some m -> m_id m <> name) ->
    NoName (Node segs vars meths mall).

Lemma keep_meth_true kv : keep_meth name kv = true <-> m_id (snd kv) <> name.
Proof. unfold keep_meth. rewrite negb_true_iff. apply str_eqb_neq. Qed.
Lemma keep_meth_false kv : keep_meth name kv = false <-> m_id (snd kv) = name.
Proof. unfold keep_meth. rewrite negb_false_iff. apply str_eqb_eq. Qed.

Lemma del_mall_spec mall :
  (forall m, fst (del_mall name mall) = Some m <-> mall = Some m /\ m_id m <> name) /\
  (snd (del_mall name mall) = false <-> forall m, mall = Some m -> m_id m <> name) /\
  (snd (del_mall name mall) = false -> fst (del_mall name mall) = mall).
Proof.
  unfold del_mall. destruct mall as [y|]; [destruct (str_eqb (m_id y) name) eqn:E|]; cbn [fst snd].
  - apply str_eqb_eq in E. split; [|split].
    + intros m. split; [discriminate|]. intros [H1 H2]. injection H1 as ->. contradiction.
    + split; [discriminate|]. intros H. exfalso. now apply (H y).
    + discriminate.
  - apply str_eqb_neq in E. split; [|split].
    + intros m. split; [intros H; injection H as ->; auto|]. intros [H _]. exact H.
    + split; [|reflexivity]. intros _ m H. injection H as ->. exact E.
    + reflexivity.
  - split; [|split].
    + intros m. split; [discriminate|]. intros [H _]. discriminate.
    + split; [|reflexivity]. intros _ m H. discriminate.
    + reflexivity.
Qed.

(* everything that is left belongs to other methods *)
Theorem del_rule_NoName : forall nd, NoName (dnode nd).
Proof.
  node_ind. intros segs vars meths mall IHs IHv. rewrite dnode_eq. constructor.
  - exact (dchildren_all NoName segs IHs).
  - exact (dchildren_all NoName vars IHv).
  - intros v m Hin. apply filter_In in Hin. destruct Hin as [_ Hk]. now apply keep_meth_true in Hk.
  - intros m Hm. now apply (proj1 (del_mall_spec mall)) in Hm.
Qed.

Theorem dok_false_iff : forall nd, dok nd = false <-> NoName nd.
Proof.
  node_ind. intros segs vars meths mall IHs IHv. rewrite dok_eq. unfold del_ok_of.
  rewrite !orb_false_iff, !existsb_false, (proj1 (proj2 (del_mall_spec mall))). split.
  - intros [[[H1 H2] H3] H4]. constructor; [| | |exact H4].
    + intros k c Hin. apply (IHs k c Hin), (H1 (k, c) Hin).
    + intros p c Hin. apply (IHv p c Hin), (H2 (p, c) Hin).
    + intros v m Hin. apply (keep_meth_true (v, m)), negb_false_iff, (H3 (v, m) Hin).
  - intros H. inversion H as [s v ms a N1 N2 N3 N4]; subst. repeat split; [| | |exact N4].
    + intros [k c] Hin. apply (IHs k c Hin), (N1 k c Hin).
    + intros [p c] Hin. apply (IHv p c Hin), (N2 p c Hin).
    + intros [v m] Hin. apply negb_false_iff, keep_meth_true, (N3 v m Hin).
Qed.

(* ok = false: the trie is what it was (Go mutates in place; nothing was written) *)
Theorem del_rule_false_same nd : dok nd = false -> dnode nd = nd.
Proof.
  intros H. apply dok_false_iff in H. induction H as [segs vars meths mall N1 IH1 N2 IH2 N3 N4]. rewrite dnode_eq.
  assert (Kids : forall K (l : list (K * node)),
            (forall k c, In (k, c) l -> NoName c) -> (forall k c, In (k, c) l -> dnode c = c) -> map dmap (filter kept l) = l).
  { intros K l N IH. rewrite filter_all; [apply map_all_id|]; intros [k c] Hin.
    - unfold dmap. cbn [fst snd]. f_equal. eauto.
    - unfold kept, keptn. cbn [snd]. now rewrite (proj2 (dok_false_iff c) (N k c Hin)). }
  f_equal; auto.
  - apply filter_all. intros [v m] Hin. apply keep_meth_true. cbn [snd]. eauto.
  - apply (proj2 (proj2 (del_mall_spec mall))). now apply (proj1 (proj2 (del_mall_spec mall))).
Qed.

Theorem del_rule_absent nd : NoName nd -> del_rule name nd = (nd, false).
Proof.
  intros H. apply dok_false_iff in H. pose proof (del_rule_false_same nd H) as E.
  unfold dok, dnode in *. destruct (del_rule name nd) as [n' o]. cbn [fst snd] in *. now subst.
Qed.
Theorem del_rule_ok_iff nd : snd (del_rule name nd) = true <-> ~ NoName nd.
Proof.
  fold (dok nd). rewrite <- dok_false_iff. symmetry. apply not_false_iff_true.
Qed.

Lemma sorted_map_filter {A : Type} (R : str -> str -> Prop) (g : A -> str) f l :
  StronglySorted R (map g l) -> StronglySorted R (map g (filter f l)).
Proof.
  induction l as [|a l IH]; cbn [map filter]; intros H; [constructor|].
  inversion H as [|x l' Hs Hall]; subst. destruct (f a); cbn [map]; auto.
  constructor; [auto|]. rewrite Forall_forall in *. intros y Hy. apply Hall.
  apply in_map_iff in Hy. destruct Hy as (z & <- & Hz). apply filter_In in Hz. apply in_map. tauto.
Qed.
Lemma map_vname_dmap l : map vname (map dmap l) = map vname l.
Proof. rewrite map_map. apply map_ext. intros [p c]. reflexivity. Qed.
Lemma map_fst_dmap {K : Type} (l : list (K * node)) : map fst (map dmap l) = map fst l.
Proof. rewrite map_map. apply map_ext. intros [p c]. reflexivity. Qed.

Theorem del_rule_WFn (P : list token -> Prop) : forall nd k, WFn P k nd -> WFn P k (dnode nd).
Proof.
  node_ind. intros segs vars meths mall IHs IHv k Hw.
  inversion Hw as [k0 s v ms a W1 W2 W3 W4 W5]; subst. rewrite dnode_eq. constructor.
  - apply dchildren_all. eauto.
  - intros pat c' Hin. apply in_dchildren in Hin. destruct Hin as (c & Hin & -> & _).
    destruct (W2 pat c Hin) as [Pp Wc]. split; [exact Pp|]. apply (IHv pat c Hin). exact Wc.
  - unfold names_sorted. rewrite map_vname_dmap. apply sorted_map_filter. exact W3.
  - intros v0 m Hin. apply filter_In in Hin. destruct Hin as [Hin _]. eauto.
  - intros m Hm. apply (proj1 (del_mall_spec mall)) in Hm. destruct Hm as [Hm _]. eauto.
Qed.

Lemma NoName_Reach nd es nd' : Reach nd es nd' -> NoName nd -> NoName nd'.
Proof.
  induction 1 as [nd|nd key c es nd' Ha HR IH|nd pat c es nd' Hin HR IH]; intros HN; auto.
  - apply IH. inversion HN as [s v ms a N1 N2 N3 N4]; subst. cbn [n_segs] in Ha. apply (N1 key c). now apply assoc_in.
  - apply IH. inversion HN as [s v ms a N1 N2 N3 N4]; subst. cbn [n_vars] in Hin. eauto.
Qed.
Lemma NoName_bound verb nd m : NoName nd -> bound_at verb nd = Some m -> m_id m <> name.
Proof.
  intros HN HB. inversion HN as [s v ms a N1 N2 N3 N4]; subst. unfold bound_at in HB. cbn [n_meths n_mall] in HB.
  destruct (assoc verb ms) as [m0|] eqn:Ea.
  - injection HB as ->. apply (N3 verb m). now apply assoc_in.
  - now apply N4.
Qed.
Theorem search_NoName okconv fuel verb nd toks m ps :
  NoName nd -> search okconv fuel verb nd toks = Ok (m, ps) -> m_id m <> name.
Proof.
  intros HN H. destruct (search_sound okconv _ _ _ _ _ H) as (es & nd' & HR & HB & _). cbn [fst] in HB.
  eapply NoName_bound; [eapply NoName_Reach; eauto|exact HB].
Qed.

Theorem del_rule_Live : forall nd, Live nd -> Live (dnode nd).
Proof.
  node_ind. intros segs vars meths mall IHs IHv HL. inversion HL as [s v ms a L1 L2]; subst. rewrite dnode_eq.
  assert (Kids : forall K (l : list (K * node)),
            (forall k c, In (k, c) l -> HasB c /\ Live c) -> (forall k c, In (k, c) l -> Live c -> Live (dnode c)) ->
            forall k c', In (k, c') (map dmap (filter kept l)) -> HasB c' /\ Live c').
  { intros K l L IHl k c' Hin. apply in_dchildren in Hin. destruct Hin as (c & Hin & -> & Hk). destruct (L k c Hin) as [Hb Hl].
    unfold kept, keptn in Hk. cbn [snd] in Hk. destruct (dok c) eqn:Ed; cbn [negb orb] in Hk.
    - pose proof (IHl k c Hin Hl) as Hl'. split; [now apply alive_HasB|exact Hl'].
    - rewrite (del_rule_false_same c Ed). auto. }
  constructor; eauto.
Qed.

(* every node search can reach below the root of the result is alive, and has a binding at or below it *)
Theorem del_rule_no_dead nd es n :
  Live nd -> Reach (dnode nd) es n -> es <> [] -> alive n = true /\ HasB n.
Proof.
  intros HL HR Hne. destruct (Live_Reach _ _ _ HR (del_rule_Live nd HL)) as [_ Hb]. split; [apply HasB_alive|]; auto.
Qed.

Definition finfo (i : list (str * minfo) * option minfo) : list (str * minfo) * option minfo :=
  (filter (keep_meth name) (fst i), fst (del_mall name (snd i))).

Lemma info_dnode n : info (dnode n) = finfo (info n).
Proof. destruct n as [segs vars meths mall]. rewrite dnode_eq. reflexivity. Qed.

Lemma stored_finfo_keep i key m : stored i key m -> m_id m <> name -> stored (finfo i) key m.
Proof.
  unfold stored, finfo. cbn [fst snd]. intros [[-> H]|H] Hm.
  - left. split; [reflexivity|]. apply (proj1 (del_mall_spec (snd i))). auto.
  - right. apply assoc_filter_keep; [exact H|]. now apply keep_meth_true.
Qed.
Lemma stored_finfo_inv i key m : NoDup (map fst (fst i)) -> stored (finfo i) key m -> stored i key m /\ m_id m <> name.
Proof.
  unfold stored, finfo. cbn [fst snd]. intros Hnd [[-> H]|H].
  - apply (proj1 (del_mall_spec (snd i))) in H. tauto.
  - apply (assoc_filter_inv key m _ _ Hnd) in H. destruct H as [H Hk]. apply keep_meth_true in Hk. tauto.
Qed.
Theorem stored_finfo_iff i key m : NoDup (map fst (fst i)) -> (stored (finfo i) key m <-> stored i key m /\ m_id m <> name).
Proof. intros Hnd. split; [now apply stored_finfo_inv|]. intros [A B]. now apply stored_finfo_keep. Qed.

Lemma assoc_dmap k l : assoc k (map dmap l) = option_map dnode (assoc k l).
Proof.
  induction l as [|[k0 c0] r IH]; [reflexivity|]. cbn [map]. unfold dmap at 1. cbn [fst snd assoc option_map].
  destruct (str_eqb k0 k); [reflexivity|exact IH].
Qed.
Lemma assoc_dchildren_keep k c l :
  assoc k l = Some c -> keptn c = true -> assoc k (map dmap (filter kept l)) = Some (dnode c).
Proof. intros H Hk. rewrite assoc_dmap, (assoc_filter_keep k c kept l H Hk). reflexivity. Qed.
Lemma assoc_dchildren_inv k c' l :
  NoDup (map fst l) -> assoc k (map dmap (filter kept l)) = Some c' ->
  exists c, assoc k l = Some c /\ c' = dnode c /\ keptn c = true.
Proof.
  intros Hnd. rewrite assoc_dmap. destruct (assoc k (filter kept l)) as [c|] eqn:E; [|discriminate]. intros H. injection H as <-.
  apply (assoc_filter_inv k c kept l Hnd) in E. exists c. tauto.
Qed.
Lemma vkey_dchildren l : map vkey (map dmap (filter kept l)) = map dmap (filter kept (map vkey l)).
Proof.
  induction l as [|[p c] l IH]; [reflexivity|]. cbn [filter map].
  change (kept (vkey (p, c))) with (keptn c). change (kept (p, c)) with (keptn c).
  destruct (keptn c); cbn [map]; rewrite IH; reflexivity.
Qed.
Lemma find_dchildren_keep nm c l :
  find_var nm l = Some c -> keptn c = true -> find_var nm (map dmap (filter kept l)) = Some (dnode c).
Proof. rewrite !find_var_assoc, vkey_dchildren. apply assoc_dchildren_keep. Qed.
Lemma find_dchildren_inv nm c' l :
  NoDup (map vname l) -> find_var nm (map dmap (filter kept l)) = Some c' ->
  exists c, find_var nm l = Some c /\ c' = dnode c /\ keptn c = true.
Proof. rewrite !find_var_assoc, vkey_dchildren, <- map_fst_vkey. apply assoc_dchildren_inv. Qed.

Lemma child_dnode_keep e nd c : child_at e nd = Some c -> keptn c = true -> child_at e (dnode nd) = Some (dnode c).
Proof.
  destruct nd as [segs vars meths mall]. rewrite dnode_eq.
  destruct e; [apply assoc_dchildren_keep|apply find_dchildren_keep].
Qed.
Lemma child_dnode_inv e nd c' : Uq nd -> child_at e (dnode nd) = Some c' ->
  exists c, child_at e nd = Some c /\ c' = dnode c /\ keptn c = true.
Proof.
  intros HU. inversion HU as [s v ms a U1 U2 U3 U4 U5]; subst. rewrite dnode_eq.
  destruct e; [now apply assoc_dchildren_inv|now apply find_dchildren_inv].
Qed.

Theorem walk_del_inv es : forall nd n', Uq nd -> walk_to es (dnode nd) = Some n' ->
  exists n, walk_to es nd = Some n /\ n' = dnode n.
Proof.
  induction es as [|e es IH]; intros nd n' HU H; [injection H as <-; now exists nd|]. rewrite walk_cons in *.
  destruct (child_at e (dnode nd)) as [c'|] eqn:Ea; [|discriminate].
  destruct (child_dnode_inv e nd c' HU Ea) as (c & Hc & -> & _). rewrite Hc. exact (IH c n' (child_Uq e nd c Hc HU) H).
Qed.

(* a node with a binding of another method, and every node on the way to it, stays *)
Theorem walk_del_survives es : forall nd n key m,
  walk_to es nd = Some n -> stored (info n) key m -> m_id m <> name -> walk_to es (dnode nd) = Some (dnode n).
Proof.
  induction es as [|e es IH]; intros nd n key m H Hs Hm; [now injection H as <-|]. rewrite walk_cons in *.
  destruct (child_at e nd) as [c|] eqn:Ea; [|discriminate].
  pose proof (IH c n key m H Hs Hm) as Hw. rewrite (child_dnode_keep e nd c Ea); [exact Hw|].
  unfold keptn. apply orb_true_iff. right. apply HasB_alive. eapply walk_HasB; [exact Hw|].
  apply (stored_HasB _ key m). rewrite info_dnode. now apply stored_finfo_keep.
Qed.

Theorem del_rule_info_inv nd es i' : Uq nd -> info_at (dnode nd) es = Some i' ->
  exists i, info_at nd es = Some i /\ i' = finfo i /\ NoDup (map fst (fst i)).
Proof.
  unfold info_at. intros HU H. destruct (walk_to es (dnode nd)) as [n'|] eqn:Ew; [|discriminate]. injection H as <-.
  destruct (walk_del_inv es nd n' HU Ew) as (n & Hw & ->). rewrite Hw. exists (info n). split; [reflexivity|]. split; [apply info_dnode|].
  exact (Uq_meths n (walk_Uq es nd n HU Hw)).
Qed.
Theorem del_rule_info_survives nd es i key m :
  info_at nd es = Some i -> stored i key m -> m_id m <> name ->
  info_at (dnode nd) es = Some (finfo i) /\ stored (finfo i) key m.
Proof.
  unfold info_at. intros H Hs Hm. destruct (walk_to es nd) as [n|] eqn:Ew; [|discriminate]. injection H as <-.
  rewrite (walk_del_survives es nd n key m Ew Hs Hm). rewrite info_dnode. split; [reflexivity|now apply stored_finfo_keep].
Qed.
(* exactly the bindings of the other methods, at the same places *)
Theorem del_rule_content nd es key m : Uq nd ->
  ((exists i', info_at (dnode nd) es = Some i' /\ stored i' key m) <->
   (exists i, info_at nd es = Some i /\ stored i key m /\ m_id m <> name)).
Proof.
  intros HU. split.
  - intros (i' & Hi & Hs). destruct (del_rule_info_inv nd es i' HU Hi) as (i & Hi0 & -> & Hnd).
    apply (stored_finfo_inv i key m Hnd) in Hs. exists i. tauto.
  - intros (i & Hi & Hs & Hm). exists (finfo i). now apply del_rule_info_survives.
Qed.

Theorem del_rule_Uq nd : Uq nd -> Uq (dnode nd).
Proof.
  induction 1 as [segs vars meths mall U1 U2 U3 _ IHs _ IHv]. rewrite dnode_eq. constructor.
  - rewrite map_fst_dmap. now apply NoDup_map_filter.
  - rewrite map_vname_dmap. now apply NoDup_map_filter.
  - now apply NoDup_map_filter.
  - exact (dchildren_all Uq segs IHs).
  - exact (dchildren_all Uq vars IHv).
Qed.

(* a node (other than the root) is there afterwards exactly when a binding of another method sits at or below it *)
Theorem del_rule_domain nd es : Uq nd -> Live nd -> es <> [] ->
  (exists_at (dnode nd) es <->
   exists es2 i key m, info_at nd (es ++ es2) = Some i /\ stored i key m /\ m_id m <> name).
Proof.
  intros HU HL Hne. unfold exists_at. split.
  - intros Hex. destruct (walk_to es (dnode nd)) as [n'|] eqn:Ew; [|congruence].
    destruct (Live_walk es _ n' Ew (del_rule_Live nd HL)) as [_ Hb].
    pose proof (walk_Uq es _ n' (del_rule_Uq nd HU) Ew) as HUn.
    destruct (HasB_walk n' HUn (Hb (or_introl Hne))) as (es2 & n2 & key & m & Hw2 & Hs).
    assert (Hi : info_at (dnode nd) (es ++ es2) = Some (info n2)) by (unfold info_at; now rewrite walk_to_app, Ew, Hw2).
    destruct (proj1 (del_rule_content nd (es ++ es2) key m HU)) as (i & A & B & C); [eauto|]. exists es2, i, key, m. auto.
  - intros (es2 & i & key & m & Hi & Hs & Hm).
    destruct (del_rule_info_survives nd (es ++ es2) i key m Hi Hs Hm) as [Hi' _].
    unfold info_at in Hi'. rewrite walk_to_app in Hi'. destruct (walk_to es (dnode nd)); [discriminate|discriminate].
Qed.

End Del.

(* what registration maintains besides Inv: the keys of the association lists are keys *)
Inductive KeysND : node -> Prop :=
| KeysND_intro segs vars meths mall :
    NoDup (map fst segs) -> NoDup (map fst meths) ->
    (forall k c, In (k, c) segs -> KeysND c) -> (forall p c, In (p, c) vars -> KeysND c) ->
    KeysND (Node segs vars meths mall).

Lemma KeysND_empty : KeysND empty_node.
Proof. constructor; cbn; try constructor; contradiction. Qed.

Lemma sorted_nodup l : StronglySorted (fun a b => str_ltb a b = true) l -> NoDup l.
Proof.
  induction 1 as [|a l Hs IH Hall]; constructor; auto. intros Hin. rewrite Forall_forall in Hall.
  pose proof (Hall a Hin) as X. rewrite str_ltb_irrefl in X. discriminate.
Qed.

Lemma WFn_KeysND_Uq (P : list token -> Prop) : forall nd k, WFn P k nd -> KeysND nd -> Uq nd.
Proof.
  node_ind. intros segs vars meths mall IHs IHv k Hw HK.
  inversion Hw as [k0 s v ms a W1 W2 W3 W4 W5]; subst. inversion HK as [s v ms a K1 K2 K3 K4]; subst.
  constructor; auto.
  - apply sorted_nodup. exact W3.
  - intros key c Hin. eapply (IHs key c Hin); eauto.
  - intros p c Hin. destruct (W2 p c Hin) as [_ Wc]. eapply (IHv p c Hin); eauto.
Qed.

Lemma set_assoc_keys {A : Type} k (v : A) l x : In x (map fst (set_assoc k v l)) -> x = k \/ In x (map fst l).
Proof.
  induction l as [|[k' v'] l IH]; cbn [set_assoc map fst In].
  - intros [H|[]]. auto.
  - destruct (str_eqb k' k); cbn [map fst In]; [tauto|]. intros [H|H]; [tauto|]. destruct (IH H); tauto.
Qed.
Lemma set_assoc_nodup {A : Type} k (v : A) l : NoDup (map fst l) -> NoDup (map fst (set_assoc k v l)).
Proof.
  induction l as [|[k' v'] l IH]; cbn [set_assoc map fst]; intros H.
  - constructor; [intros []|constructor].
  - inversion H as [|x l' Hnotin Hnd]; subst. destruct (str_eqb k' k) eqn:E; cbn [map fst]; [constructor; auto|].
    constructor; [|auto]. intros Hin. destruct (set_assoc_keys _ _ _ _ Hin) as [->|Hin']; [|contradiction].
    rewrite str_eqb_refl in E. discriminate.
Qed.

Lemma child_KeysND e nd : KeysND nd -> KeysND (child e nd).
Proof.
  intros HK. unfold child. destruct (child_at e nd) as [c|] eqn:E; [|apply KeysND_empty].
  inversion HK as [segs vars meths mall K1 K2 K3 K4]; subst. destruct e as [key|pat]; cbn [child_at n_segs n_vars] in E.
  - exact (K3 key c (assoc_in _ _ _ E)).
  - destruct (find_var_in _ _ _ E) as (p' & Hin & _). exact (K4 p' c Hin).
Qed.
Lemma set_child_KeysND e c nd : KeysND nd -> KeysND c -> KeysND (set_child e c nd).
Proof.
  intros HK Hc. inversion HK as [segs vars meths mall K1 K2 K3 K4]; subst.
  destruct e as [key|pat]; cbn [set_child n_segs n_vars n_meths n_mall]; constructor; auto.
  - now apply set_assoc_nodup.
  - intros key2 c2 Hin. destruct (in_set_assoc _ _ _ _ _ Hin) as [[-> ->]|Hin']; [exact Hc|eauto].
  - intros p c0 Hin. destruct (in_set_var _ _ _ _ _ Hin) as [[-> _]|Hin']; [exact Hc|eauto].
Qed.
Lemma set_at_KeysND es : forall l nd, KeysND nd -> (KeysND (leaf_of nd es) -> KeysND l) -> KeysND (set_at es l nd).
Proof.
  induction es as [|e es IH]; intros l nd HK Hl; cbn [set_at]; [exact (Hl HK)|]. rewrite leaf_of_cons in Hl.
  apply set_child_KeysND; [exact HK|]. apply IH; [now apply child_KeysND|exact Hl].
Qed.

Lemma Live_empty : Live empty_node.
Proof. constructor; cbn; contradiction. Qed.
Lemma set_child_Live e c nd : Live nd -> Live c /\ HasB c -> Live (set_child e c nd) /\ HasB (set_child e c nd).
Proof.
  intros HL [Lc Bc]. split; [|exact (child_HasB e _ c (child_at_set_eq e c nd) Bc)].
  inversion HL as [segs vars meths mall L1 L2]; subst.
  destruct e as [key|pat]; cbn [set_child n_segs n_vars n_meths n_mall]; constructor; auto.
  - intros key2 c2 Hin. destruct (in_set_assoc _ _ _ _ _ Hin) as [[-> ->]|Hin']; [tauto|eauto].
  - intros p c0 Hin. destruct (in_set_var _ _ _ _ _ Hin) as [[-> _]|Hin']; [tauto|eauto].
Qed.
Lemma set_at_Live es : forall l nd, Live nd -> (Live (leaf_of nd es) -> Live l /\ HasB l) ->
  Live (set_at es l nd) /\ HasB (set_at es l nd).
Proof.
  induction es as [|e es IH]; intros l nd HL Hl; cbn [set_at]; [exact (Hl HL)|]. rewrite leaf_of_cons in Hl.
  apply set_child_Live; [exact HL|]. apply IH; [|exact Hl].
  unfold child. destruct (child_at e nd) as [c|] eqn:E; [apply (child_Live e nd c E HL)|apply Live_empty].
Qed.

Definition keepL (name : str) (x : str * brule) : bool := negb (str_eqb (fst x) name).
Lemma keepL_in name L x : In x (filter (keepL name) L) <-> In x L /\ fst x <> name.
Proof. rewrite filter_In. unfold keepL. rewrite negb_true_iff. now rewrite str_eqb_neq. Qed.

Lemma prefix_split a : forall es_b, is_prefix (keys a) (keys es_b) = true -> exists e1 e2, es_b = e1 ++ e2 /\ keys e1 = keys a.
Proof.
  induction a as [|x a IH]; intros es_b H.
  - exists [], es_b. auto.
  - destruct es_b as [|y es_b]; [cbn in H; discriminate|].
    rewrite !keys_cons in H. apply is_prefix_cons in H. destruct H as [E H]. destruct (IH _ H) as (e1 & e2 & -> & Hk).
    exists (y :: e1), e2. split; [reflexivity|]. rewrite !keys_cons. congruence.
Qed.
Lemma keys_app a b : keys (a ++ b) = keys a ++ keys b.
Proof. apply map_app. Qed.

Section DelRouting.
Variables isLetter isNumber : N -> bool.
Variable resolves body_ok resp_ok : str -> list str -> bool.
Variable okconv : list str -> str -> bool.

Notation PatG := (PatG isLetter isNumber).
Notation Inv := (Inv isLetter isNumber resolves).
Notation InvX := (InvX isLetter isNumber resolves).
Notation Distinct := (Distinct isLetter isNumber resolves).
Notation at_node := (at_node isLetter isNumber resolves).
Notation compiled := (compiled isLetter isNumber resolves).
Notation route := (route okconv isLetter isNumber).
Notation add_binding := (add_binding resolves body_ok resp_ok isLetter isNumber).
Notation leaf := (leaf resolves body_ok resp_ok).
Notation build_from := (build_from isLetter isNumber resolves body_ok resp_ok).

Lemma leaf_KeysND mid b vfs nd nd' : leaf mid b vfs nd = Ok nd' -> KeysND nd -> KeysND nd'.
Proof.
  intros H HK. destruct (leaf_keeps resolves body_ok resp_ok mid b vfs nd nd' H) as [Hs Hv].
  pose proof (leaf_nodup resolves body_ok resp_ok mid b vfs nd nd' H) as Hn.
  destruct nd as [s v ms a], nd' as [s' v' ms' a']. cbn [n_segs n_vars n_meths] in *. subst s' v'.
  inversion HK as [s0 v0 ms0 a0 K1 K2 K3 K4]; subst. constructor; auto.
Qed.
Theorem add_binding_KeysND mid root b root' : add_binding mid root b = Ok root' -> KeysND root -> KeysND root'.
Proof.
  intros H HK. destruct (add_binding_ok isLetter isNumber resolves body_ok resp_ok _ _ _ _ H) as (es0 & vfs & l & _ & Hl & ->).
  apply set_at_KeysND; [exact HK|]. exact (leaf_KeysND _ _ _ _ _ Hl).
Qed.
(* anything that one accepted binding preserves holds of everything registration builds *)
Section Chain.
Variable Q : node -> Prop.
Hypothesis Qstep : forall mid root b root', add_binding mid root b = Ok root' -> Q root -> Q root'.

Lemma build_from_pres l : forall root r, build_from root l = Ok r -> Q root -> Q r.
Proof.
  induction l as [|[mid b] l IH]; intros root r H HQ; cbn in H; [now injection H as <-|].
  apply bind_ok in H. destruct H as (r1 & E1 & H). eapply IH; [exact H|]. eapply Qstep; eauto.
Qed.
Lemma add_bindings_pres mid bs : forall root root',
  add_bindings isLetter isNumber resolves body_ok resp_ok mid root bs = Ok root' -> Q root -> Q root'.
Proof.
  induction bs as [|b bs IH]; intros root root' H HQ; cbn in H; [now injection H as <-|].
  apply bind_ok in H. destruct H as (r1 & E1 & H). eapply IH; [exact H|]. eapply Qstep; eauto.
Qed.
Lemma register_methods_pres : forall ds root root',
  Trie.register_methods resolves body_ok resp_ok isLetter isNumber root ds = Ok root' -> Q root -> Q root'.
Proof.
  induction ds as [|d ds IH]; intros root root' H HQ; cbn in H; [now injection H as <-|].
  apply bind_ok in H. destruct H as (r1 & E1 & H). eapply IH; [exact H|].
  exact (add_bindings_pres _ _ _ _ (append_handler_ok _ _ _ _ _ _ _ _ E1) HQ).
Qed.
End Chain.

Theorem build_from_KeysND l root r : build_from root l = Ok r -> KeysND root -> KeysND r.
Proof. apply build_from_pres. exact add_binding_KeysND. Qed.

(* registration creates no dead node: every node it makes leads to the binding it stores *)
Theorem add_binding_Live mid root b root' : add_binding mid root b = Ok root' -> Live root -> Live root'.
Proof.
  intros H HL. destruct (add_binding_ok isLetter isNumber resolves body_ok resp_ok _ _ _ _ H) as (es0 & vfs & l & _ & Hf & ->).
  apply set_at_Live; [exact HL|]. intros Hl. destruct (leaf_keeps resolves body_ok resp_ok mid b vfs _ l Hf) as [Hs Hv].
  destruct (leaf_spec resolves body_ok resp_ok _ _ _ _ _ Hf) as (_ & _ & (m & Hm & _)). split; [|eapply stored_HasB; eauto].
  destruct (leaf_of root es0) as [s v ms a], l as [s' v' ms' a']. cbn [n_segs n_vars] in *. subst s' v'.
  inversion Hl as [s0 v0 ms0 a0 L1 L2]; subst. constructor; auto.
Qed.
Theorem build_from_Live l root r : build_from root l = Ok r -> Live root -> Live r.
Proof. apply build_from_pres. exact add_binding_Live. Qed.

Theorem del_rule_KeysND name nd : KeysND nd -> KeysND (dnode name nd).
Proof.
  induction 1 as [segs vars meths mall K1 K2 _ IHs _ IHv]. rewrite dnode_eq. constructor.
  - rewrite map_fst_dmap. now apply NoDup_map_filter.
  - now apply NoDup_map_filter.
  - exact (dchildren_all name KeysND segs IHs).
  - exact (dchildren_all name KeysND vars IHv).
Qed.

(* the invariant of built tries, for the bindings of the other methods *)
Theorem del_rule_Inv name L nd : Inv L nd -> KeysND nd -> Inv (filter (keepL name) L) (dnode name nd).
Proof.
  intros [Iw In_ Ip Ipr] HK. pose proof (WFn_KeysND_Uq _ _ _ Iw HK) as HU. constructor.
  - now apply del_rule_WFn.
  - intros es i' Hi. destruct (del_rule_info_inv name nd es i' HU Hi) as (i & Hi0 & -> & _).
    unfold finfo. cbn [fst]. apply assoc_filter_none. eauto.
  - intros es i' key m Hi Hs. destruct (del_rule_info_inv name nd es i' HU Hi) as (i & Hi0 & -> & Hnd).
    apply (stored_finfo_inv name i key m Hnd) in Hs. destruct Hs as [Hs Hm].
    destruct (Ip es i key m Hi0 Hs) as (mid & b & es' & A & B & C & D & E & F). exists mid, b, es'.
    split; [apply keepL_in; split; [exact A|cbn [fst]; congruence]|]. auto.
  - intros mid b Hin. apply keepL_in in Hin. destruct Hin as [Hin Hne]. cbn [fst] in Hne.
    destruct (Ipr mid b Hin) as (es & vfs & i & m & Hc & Hi & Hs & Hm).
    destruct (del_rule_info_survives name nd es i (b_verb b) m Hi Hs) as [Hi' Hs']; [congruence|].
    exists es, vfs, (finfo name i), m. auto.
Qed.

Lemma inv_below L nd mid b es_b vfs es :
  Inv L nd -> In (mid, b) L -> compiled mid b es_b vfs -> is_prefix (keys es) (keys es_b) = true ->
  exists es2 i m, info_at nd (es ++ es2) = Some i /\ stored i (b_verb b) m /\ m_id m = mid.
Proof.
  intros HI Hin Hc Hp. destruct (inv_present _ _ _ _ _ HI mid b Hin) as (es1 & vfs1 & i & m & Hc1 & Hi & Hs & Hm).
  destruct (compiled_fun _ _ _ _ _ _ _ _ _ Hc Hc1) as [<- <-]. destruct (prefix_split es es_b Hp) as (e1 & e2 & -> & Hk).
  exists e2, i, m. split; [|auto]. rewrite <- Hi. apply info_at_keys. rewrite !keys_app. now rewrite Hk.
Qed.

Lemma InvX_Live L nd : InvX L nd -> Uq nd -> Live nd.
Proof.
  intros [HI Hd _ _] HU. apply walk_Live; [exact HU|]. intros es n Hne Hw.
  assert (Hex : exists_at nd es) by (unfold exists_at; congruence).
  apply Hd in Hex. destruct Hex as [->|([mid b] & es_b & vfs & Hin & Hc & Hp)]; [contradiction|].
  destruct (inv_below L nd mid b es_b vfs es HI Hin Hc Hp) as (es2 & i & m & Hi & Hs & _).
  unfold info_at in Hi. rewrite walk_to_app, Hw in Hi. destruct (walk_to es2 n) as [n2|] eqn:E2; [|discriminate]. injection Hi as <-.
  eapply walk_HasB; [exact E2|]. eapply stored_HasB; eauto.
Qed.

Theorem del_rule_InvX name L nd : InvX L nd -> KeysND nd -> InvX (filter (keepL name) L) (dnode name nd).
Proof.
  intros HX HK. pose proof HX as [HI Hd Hi Hnd].
  pose proof (WFn_KeysND_Uq _ _ _ (inv_wf _ _ _ _ _ HI) HK) as HU. pose proof (InvX_Live L nd HX HU) as HL.
  constructor.
  - now apply del_rule_Inv.
  - intros es. destruct es as [|e es'].
    { split; [now left|]. intros _. unfold exists_at. cbn. discriminate. }
    rewrite (del_rule_domain name nd (e :: es') HU HL) by discriminate. split.
    + intros (es2 & i & key & m & Hinfo & Hs & Hm). right.
      destruct (inv_prov _ _ _ _ _ HI _ i key m Hinfo Hs) as (mid & b & es_b & A & B & C & D & E & F).
      exists (mid, b), es_b, (m_vars m). split; [apply keepL_in; cbn [fst]; split; [exact A|congruence]|].
      split; [exact E|]. rewrite <- F, keys_app. apply is_prefix_app.
    + intros [E|([mid b] & es_b & vfs & Hin & Hc & Hp)]; [discriminate|].
      apply keepL_in in Hin. destruct Hin as [Hin Hne]. cbn [fst snd] in *.
      destruct (inv_below L nd mid b es_b vfs (e :: es') HI Hin Hc Hp) as (es2 & i & m & Hi1 & Hs & Hm).
      exists es2, i, (b_verb b), m. split; [exact Hi1|]. split; [exact Hs|congruence].
  - intros es i' key m Hinfo. destruct (del_rule_info_inv name nd es i' HU Hinfo) as (i & Hi0 & -> & Hn).
    rewrite (stored_finfo_iff name i key m Hn). rewrite (Hi es i key m Hi0). split.
    + intros [(x & eb & vb & A & B & C & D & E) Hm]. exists x, eb, vb.
      split; [apply keepL_in; split; [exact A|]|auto]. subst m. exact Hm.
    + intros (x & eb & vb & A & B & C & D & E). apply keepL_in in A. destruct A as [A Hne].
      split; [exists x, eb, vb; auto|]. subst m. exact Hne.
  - intros es i' Hinfo. destruct (del_rule_info_inv name nd es i' HU Hinfo) as (i & Hi0 & -> & Hn).
    unfold finfo. cbn [fst]. now apply NoDup_map_filter.
Qed.

(* whatever the trie, a request is never routed to the removed method afterwards *)
Theorem route_after_del_not_removed name nd verb p m caps :
  route (remove_method name nd) verb p = Ok (m, caps) -> m_id m <> name.
Proof.
  unfold Match.route, remove_method. destruct (lex_path isLetter isNumber (normalise p)) as [toks| | |]; try discriminate.
  apply search_NoName. apply del_rule_NoName.
Qed.

Theorem del_rule_TrieInv name nd k : WFn PatG k nd -> TrieInv (remove_method name nd) k.
Proof. intros Hw. apply (WFn_TrieInv PatG (PatG_ok isLetter isNumber)). now apply del_rule_WFn. Qed.
Theorem route_after_del_total name L nd verb p :
  Inv L nd -> KeysND nd -> benign (route (remove_method name nd) verb p).
Proof using body_ok resp_ok.
  intros HI HK. apply (route_total isLetter isNumber resolves okconv (filter (keepL name) L)).
  now apply del_rule_Inv.
Qed.
Theorem route_after_del_total_wf name nd verb p :
  WFn PatG 0 nd -> benign (route (remove_method name nd) verb p).
Proof using resolves body_ok resp_ok.
  intros Hw. unfold Match.route.
  pose proof (lex_path_benign isLetter isNumber (normalise p)) as Hl.
  destruct (lex_path isLetter isNumber (normalise p)) as [toks| | |]; cbn in Hl; try contradiction; [|exact I].
  eapply search_total; [|lia]. apply del_rule_TrieInv. exact Hw.
Qed.

(* soundness and completeness of routing, for the bindings of the other methods *)
Theorem dispatch_sound_after_del name L nd verb p m caps :
  Sane isLetter isNumber -> Inv L nd -> KeysND nd ->
  route (remove_method name nd) verb p = Ok (m, caps) ->
  exists mid b es toks,
    In (mid, b) L /\ mid <> name /\ m_id m = mid /\ covers_verb (b_verb b) verb /\ m_body m = b_body b /\
    compiled mid b es (m_vars m) /\
    lex_path isLetter isNumber (normalise p) = Ok toks /\ MatchEdges es toks caps.
Proof.
  intros sane HI HK H.
  destruct (dispatch_sound isLetter isNumber resolves okconv sane _ _ verb p m caps (del_rule_Inv name L nd HI HK) H)
    as (mid & b & es & toks & A & B).
  apply keepL_in in A. destruct A as [A Hne]. exists mid, b, es, toks. auto.
Qed.
Theorem dispatch_complete_after_del name L nd verb p mid b es vfs toks caps :
  Sane isLetter isNumber -> (forall fp t, okconv fp t = true) -> Inv L nd -> KeysND nd ->
  In (mid, b) L -> mid <> name -> covers_verb (b_verb b) verb ->
  compiled mid b es vfs -> lex_path isLetter isNumber (normalise p) = Ok toks -> MatchEdges es toks caps ->
  exists r, route (remove_method name nd) verb p = Ok r.
Proof.
  intros sane conv_all HI HK Hin Hne Hcov Hc El HM.
  apply (dispatch_complete isLetter isNumber resolves okconv sane conv_all (filter (keepL name) L) _ verb p mid b es vfs toks caps); auto.
  - now apply del_rule_Inv.
  - apply keepL_in. auto.
Qed.

(* removal = never having registered: the trie after removal routes every request as any trie
   does whose content is exactly the bindings of the other methods *)
Theorem route_after_del_same name L nd L0 nd0 verb p :
  Sane isLetter isNumber -> InvX L nd -> KeysND nd ->
  InvX L0 nd0 -> (forall x, In x L0 <-> In x L /\ fst x <> name) ->
  route (remove_method name nd) verb p = route nd0 verb p.
Proof.
  intros sane HX HK HX0 Hmem.
  apply (route_same isLetter isNumber resolves okconv sane (filter (keepL name) L) L0); auto.
  - now apply del_rule_InvX.
  - intros x. rewrite keepL_in. symmetry. apply Hmem.
Qed.

(* registering the bindings of the other methods only, in the same order, is accepted too *)
Theorem build_without name l nd :
  Distinct l -> build_from empty_node l = Ok nd ->
  exists nd0, build_from empty_node (filter (keepL name) l) = Ok nd0.
Proof.
  intros HD. apply (build_incl isLetter isNumber resolves body_ok resp_ok); [exact HD|apply incl_filter].
Qed.

Theorem removal_is_never_registering' name l nd nd0 :
  Sane isLetter isNumber -> Distinct l -> build_from empty_node l = Ok nd ->
  build_from empty_node (filter (keepL name) l) = Ok nd0 ->
  forall verb p, route (remove_method name nd) verb p = route nd0 verb p.
Proof.
  intros sane HD H1 H0 verb p.
  assert (HD0 : Distinct (filter (keepL name) l)) by (eapply Distinct_sub; [apply incl_filter|exact HD]).
  apply (route_after_del_same name (rev l) nd (rev (filter (keepL name) l)) nd0 verb p sane
           (built_InvX _ _ _ _ _ l nd HD H1)); [|exact (built_InvX _ _ _ _ _ _ nd0 HD0 H0)|].
  - eapply build_from_KeysND; [exact H1|apply KeysND_empty].
  - intros x. rewrite <- !in_rev. apply keepL_in.
Qed.
(* the trie built from a list of bindings, with one method removed, routes every request -- any
   verb, any path: same binding, same captures, or the same refusal -- as the trie built from the
   bindings of the other methods alone; and that trie exists *)
Theorem removal_is_never_registering name l nd :
  Sane isLetter isNumber -> Distinct l -> build_from empty_node l = Ok nd ->
  exists nd0, build_from empty_node (filter (keepL name) l) = Ok nd0 /\
    forall verb p, route (remove_method name nd) verb p = route nd0 verb p.
Proof.
  intros sane HD H1. destruct (build_without name l nd HD H1) as [nd0 H0]. exists nd0. split; [exact H0|].
  exact (removal_is_never_registering' name l nd nd0 sane HD H1 H0).
Qed.

(* the life cycle of the published trie: registerService and removeHandler interleaved *)
Inductive op := OReg (ds : list mdecl) | ODel (name : str).
Fixpoint run_ops (root : node) (ops : list op) : node :=
  match ops with
  | [] => root
  | OReg ds :: rest => run_ops (fst (Trie.register_service resolves body_ok resp_ok isLetter isNumber root ds)) rest
  | ODel name :: rest => run_ops (remove_method name root) rest
  end.

Lemma run_ops_pres (Q : node -> Prop) :
  (forall mid root b root', add_binding mid root b = Ok root' -> Q root -> Q root') ->
  (forall name root, Q root -> Q (remove_method name root)) ->
  forall ops root, Q root -> Q (run_ops root ops).
Proof.
  intros Ha Hd. induction ops as [|[ds|name] ops IH]; intros root HQ; cbn [run_ops]; auto.
  apply IH. unfold Trie.register_service.
  destruct (Trie.register_methods resolves body_ok resp_ok isLetter isNumber root ds) as [r1| | |] eqn:E; cbn [fst]; auto.
  exact (register_methods_pres Q Ha ds root r1 E HQ).
Qed.
Lemma run_services_ops svcs : forall root,
  run_services isLetter isNumber resolves body_ok resp_ok root svcs = run_ops root (map OReg svcs).
Proof. induction svcs as [|ds svcs IH]; intros root; cbn [run_services run_ops map]; auto. Qed.

Theorem published_KeysND svcs : KeysND (run_services isLetter isNumber resolves body_ok resp_ok empty_node svcs).
Proof.
  rewrite run_services_ops. apply (run_ops_pres KeysND add_binding_KeysND); [|apply KeysND_empty].
  intros name root. apply del_rule_KeysND.
Qed.
Theorem published_Live svcs : Live (run_services isLetter isNumber resolves body_ok resp_ok empty_node svcs).
Proof.
  rewrite run_services_ops. apply (run_ops_pres Live add_binding_Live); [|apply Live_empty].
  intros name root. apply del_rule_Live.
Qed.

Theorem lifecycle_Inv : forall ops L root, Inv L root -> KeysND root -> Live root ->
  exists L', Inv L' (run_ops root ops) /\ KeysND (run_ops root ops) /\ Live (run_ops root ops).
Proof.
  intros ops L root HI HK HL. apply (run_ops_pres (fun r => exists L', Inv L' r /\ KeysND r /\ Live r)); [| |eauto].
  - intros mid r b r' E (L' & I & K & V). exists ((mid, b) :: L').
    split; [eapply Inv_step; eauto|]. split; [eapply add_binding_KeysND|eapply add_binding_Live]; eauto.
  - intros name r (L' & I & K & V). exists (filter (keepL name) L').
    split; [now apply del_rule_Inv|]. split; [now apply del_rule_KeysND|now apply del_rule_Live].
Qed.

(* in every state of that life cycle: the search neither panics nor runs dry, and it never wanders
   into a dead subtree: every node it can reach below the root is alive *)
Theorem lifecycle_route_total ops verb p : benign (route (run_ops empty_node ops) verb p).
Proof.
  destruct (lifecycle_Inv ops [] empty_node (Inv_empty isLetter isNumber resolves) KeysND_empty Live_empty) as (L' & HI & _).
  exact (route_total isLetter isNumber resolves okconv L' _ verb p HI).
Qed.
Theorem lifecycle_no_dead ops es n : Reach (run_ops empty_node ops) es n -> es <> [] -> alive n = true /\ HasB n.
Proof.
  destruct (lifecycle_Inv ops [] empty_node (Inv_empty isLetter isNumber resolves) KeysND_empty Live_empty) as (L' & _ & _ & HL).
  intros HR Hne. destruct (Live_Reach _ _ _ HR HL) as [_ Hb]. split; [apply HasB_alive|]; auto.
Qed.

End DelRouting.

Module DelExample.
Definition asciiL (r : N) : bool := ((65 <=? r) && (r <=? 90)) || ((97 <=? r) && (r <=? 122)).
Definition asciiN (r : N) : bool := (48 <=? r) && (r <=? 57).
Definition all_ok (_ : str) (_ : list str) := true.
Definition conv_ok (_ : list str) (_ : str) := true.
Definition sv (l : list N) : str := l.
Definition GET := sv [71;69;84].
Definition mk verb tmpl := {| h_main := {| b_verb := verb; b_tmpl := tmpl; b_body := BNone; b_resp := []; b_nested := false |}; h_adds := [] |}.
Definition mA : str := sv [47;83;47;65].   (* "/S/A": GET /aa/{s1}/v1 and GET /aa/{s3=**} *)
Definition mB : str := sv [47;83;47;66].   (* "/S/B": GET /aa/{s2}/v2 and GET /aa/b/v1 *)
Definition dA := {| d_id := mA; d_config := [mk GET (sv [47;97;97;47;123;115;51;61;42;42;125])];
                    d_annot := Some (mk GET (sv [47;97;97;47;123;115;49;125;47;118;49])) |}.
Definition dB := {| d_id := mB; d_config := [mk GET (sv [47;97;97;47;98;47;118;49])];
                    d_annot := Some (mk GET (sv [47;97;97;47;123;115;50;125;47;118;50])) |}.
(* both methods hang below the literal child "/aa" and share its variable child "*" *)
Definition rootAB := run_services asciiL asciiN all_ok all_ok all_ok empty_node [[dA; dB]].
Definition rootA := run_services asciiL asciiN all_ok all_ok all_ok empty_node [[dA]].
Definition who (root : node) (verb p : str) :=
  match route conv_ok asciiL asciiN root verb p with Ok (m, caps) => Some (m_id m, caps) | _ => None end.
Definition p1 := sv [47;97;97;47;120;47;118;49].     (* /aa/x/v1 *)
Definition p2 := sv [47;97;97;47;120;47;118;50].     (* /aa/x/v2 *)
Definition p3 := sv [47;97;97;47;98;47;118;49].      (* /aa/b/v1 *)

Example rootAB_hyps :
  (exists L, Inv asciiL asciiN all_ok L rootAB) /\ KeysND rootAB /\ Live rootAB.
Proof.
  split; [|split].
  - destruct (published_Inv asciiL asciiN all_ok all_ok all_ok [[dA; dB]] [] empty_node (Inv_empty asciiL asciiN all_ok)) as (L' & HI & _). eauto.
  - apply published_KeysND.
  - apply published_Live.
Qed.

Example before_removal :
  who rootAB GET p1 = Some (mA, [sv [120]]) /\          (* /aa/x/v1 : A, s1 = x *)
  who rootAB GET p2 = Some (mB, [sv [120]]) /\          (* /aa/x/v2 : B, s2 = x *)
  who rootAB GET p3 = Some (mB, []) /\                  (* /aa/b/v1 : B's literal rule wins over A's {s1} *)
  who rootAB GET mB = Some (mB, []).                    (* the implicit rule /S/B *)
Proof. vm_compute. auto. Qed.

Example after_removal :
  let r := remove_method mB rootAB in
  snd (del_rule mB rootAB) = true /\
  who r GET p1 = Some (mA, [sv [120]]) /\               (* unchanged *)
  who r GET p2 = Some (mA, [sv [120;47;118;50]]) /\     (* A's /aa/{s3=**} takes over, s3 = x/v2 *)
  who r GET p3 = Some (mA, [sv [98]]) /\                (* A's /aa/{s1}/v1 takes over, s1 = b *)
  who r GET mB = None /\                                (* nothing left of B *)
  r = rootA /\                                          (* the trie is the one that never saw B *)
  del_rule mB r = (r, false).                           (* removing again: nothing to do *)
Proof. vm_compute. repeat split. Qed.

(* why the content statements assume that keys are keys (KeysND): an association list with a repeated
   key is not a Go map; removing the first entry would uncover the shadowed one. Registration never
   builds such a list (published_KeysND) and Go's maps cannot hold one. *)
Definition iA := {| m_id := mA; m_vars := []; m_body := BNone; m_resp := [] |}.
Definition iB := {| m_id := mB; m_vars := []; m_body := BNone; m_resp := [] |}.
Definition dup := Node [(sv [47;97], Node [] [] [] (Some iB)); (sv [47;97], Node [] [] [] (Some iA))] [] [] None.
Example keys_hypothesis_needed :
  info_at dup [ELit (sv [47;97])] = Some ([], Some iB) /\
  info_at (remove_method mB dup) [ELit (sv [47;97])] = Some ([], Some iA).
Proof. vm_compute. auto. Qed.

End DelExample.

Print Assumptions del_rule_NoName.
Print Assumptions del_rule_absent.
Print Assumptions del_rule_ok_iff.
Print Assumptions del_rule_false_same.
Print Assumptions del_rule_content.
Print Assumptions del_rule_info_inv.
Print Assumptions del_rule_info_survives.
Print Assumptions del_rule_domain.
Print Assumptions del_rule_Live.
Print Assumptions del_rule_no_dead.
Print Assumptions del_rule_WFn.
Print Assumptions del_rule_TrieInv.
Print Assumptions del_rule_KeysND.
Print Assumptions del_rule_Inv.
Print Assumptions del_rule_InvX.
Print Assumptions route_after_del_not_removed.
Print Assumptions route_after_del_total.
Print Assumptions route_after_del_total_wf.
Print Assumptions dispatch_sound_after_del.
Print Assumptions dispatch_complete_after_del.
Print Assumptions route_after_del_same.
Print Assumptions build_without.
Print Assumptions removal_is_never_registering.
Print Assumptions removal_is_never_registering'.
Print Assumptions published_KeysND.
Print Assumptions published_Live.
Print Assumptions lifecycle_Inv.
Print Assumptions lifecycle_route_total.
Print Assumptions lifecycle_no_dead.
Print Assumptions DelExample.after_removal.
