(* Proofs for C06: the modelled RecvMsg loops of every transport refine the schedule-free stream
   parsers of Spec/StreamSpec.v, for every read schedule; the parsers invert the writers; a body
   cut strictly inside a message gives the complete prefix followed by an error. Builds on the
   per-call refinement of ReadNext proved for C17 (Proofs/CodecProofs.v).
   The statements in Properties/ are phrased with: [hinv st L], the stream state stands for the unparsed
   rest L; [wellformed c limit m], m as a client writes it; [end_sim], both end clean or both with an
   error, of whatever class; and for gRPC with compression on or off: [comp_pair on], the negotiated
   (compressor, decompressor); [wire on m], flag and payload of m's frame; [small on m], that payload is
   under 2^32 bytes; [sendable limit on m], it is within the limit as well. *)
From Larking Require Import Base.GoSem Base.Reader Base.Varint Base.B64 Spec.Frames Spec.StreamSpec
  Model.Codec Model.StreamHTTP Model.GrpcFrame Proofs.CodecProofs.

(* the stream state stands for the not yet parsed rest L of the logical stream *)
Definition hinv (st : hst) (L : bytes) : Prop :=
  (rEOF st = false /\ L = rbuf st ++ rem (hsrc st)) \/ (rEOF st = true /\ L = []).

(* one RecvMsg of a client stream, read by the parser's answer on L *)
Definition step_ok (c : codec) (limit : nat) (valid : bytes -> bool) (L : bytes) (r : hcall) : Prop :=
  match parse c limit L with
  | FMsg m rest =>
      if vld c valid m then exists st', r = HRet (RFrame m) st' /\ hinv st' rest
      else exists st', r = HStop EInvalid st'
  | FEnd => exists st', r = HStop EEOF st'
  | FErr e => exists st', r = HStop e st' /\ e <> EEOF
  end.

Lemma recv_msg_step cf valid st L :
  streamingClient cf = true -> withBody cf = true -> 0 < hlimit cf -> (N.of_nat (hlimit cf) < 2 ^ 63)%N ->
  hinv st L -> step_ok (hcodec cf) (hlimit cf) valid L (recv_msg cf valid st).
Proof.
  intros Hsc Hwb Hl Hi Hinv. unfold recv_msg, read_msg. rewrite Hwb, Hsc.
  revert Hl Hi. generalize (hcodec cf) as c, (hlimit cf) as limit. intros c limit Hl Hi.
  destruct Hinv as [[HE ->] | [HE ->]]; rewrite HE; [|unfold step_ok; rewrite parse_nil by exact Hl; eauto].
  pose proof (read_next_refines c (rbuf st) (hsrc st) limit Hl Hi) as R.
  destruct (read_next c (rbuf st) (hsrc st) limit) as [dst n e s'| |]; try contradiction.
  rewrite slice_from_ok, slice0_ok by exact (refines_len _ _ _ _ _ _ _ R).
  apply refines_inv in R. unfold step_ok. destruct (parse c limit (rbuf st ++ rem (hsrc st))) as [m r| |e'].
  - destruct R as (Hn & -> & -> & Hb & [-> | (-> & -> & Hr)]).
    + assert (hinv (HSt (skipn n dst) s' false (S (recvCount st))) (skipn n dst ++ rem s')) by (left; auto).
      destruct c; cbn [vld]; [destruct (valid (firstn n dst))..|]; eauto.
    + specialize (Hb eq_refl). destruct n; [lia|]. cbn [Nat.eqb vld]. rewrite Hr. eexists. split; [reflexivity|now right].
  - destruct R as (-> & -> & _). cbn [Nat.eqb]. eauto.
  - destruct R as (-> & Hne & ->). destruct e'; try congruence; eauto.
Qed.

(* the handler's loop over RecvMsg is the schedule-free parse of the logical stream *)
Theorem http_recv_refines : forall fuel cf valid st L,
  streamingClient cf = true -> withBody cf = true -> 0 < hlimit cf -> (N.of_nat (hlimit cf) < 2 ^ 63)%N ->
  hinv st L -> length L < fuel ->
  fst (http_recv_all fuel cf valid st) = map RFrame (fst (http_stream fuel (hcodec cf) (hlimit cf) valid L)) /\
  end_rel (snd (http_recv_all fuel cf valid st)) (snd (http_stream fuel (hcodec cf) (hlimit cf) valid L)).
Proof.
  induction fuel as [|f IH]; intros cf valid st L Hsc Hwb Hl Hi Hinv Hf; [lia|].
  cbn [http_recv_all http_stream].
  pose proof (recv_msg_step cf valid st L Hsc Hwb Hl Hi Hinv) as S. unfold step_ok in S.
  destruct (parse (hcodec cf) (hlimit cf) L) as [m rest| |e'] eqn:Hp.
  - destruct (vld (hcodec cf) valid m).
    + destruct S as (st' & -> & Hinv'). pose proof (parse_progress _ _ _ _ _ Hl Hp) as Hprog.
      specialize (IH cf valid st' rest Hsc Hwb Hl Hi Hinv' ltac:(lia)).
      destruct (http_recv_all f cf valid st') as [ms e].
      destruct (http_stream f (hcodec cf) (hlimit cf) valid rest) as [ms' e'].
      cbn [fst snd map] in *. destruct IH as [-> IH2]. auto.
    + destruct S as (st' & ->). cbn. auto.
  - destruct S as (st' & ->). cbn. auto.
  - destruct S as (st' & -> & Hne). destruct e'; cbn; auto; congruence.
Qed.

Corollary http_recv_is_parser c limit valid s :
  0 < limit -> (N.of_nat limit < 2 ^ 63)%N ->
  let cf := HCfg c limit true true in
  let fuel := S (length (rem s)) in
  fst (http_recv_all fuel cf valid (hst0 s)) = map RFrame (fst (http_stream fuel c limit valid (rem s))) /\
  end_rel (snd (http_recv_all fuel cf valid (hst0 s))) (snd (http_stream fuel c limit valid (rem s))).
Proof.
  intros Hl Hi. cbv zeta.
  apply (http_recv_refines (S (length (rem s))) (HCfg c limit true true) valid (hst0 s) (rem s)); auto.
  left. split; reflexivity.
Qed.

Lemma valid_vld c valid m : valid m = true -> vld c valid m = true.
Proof. now destruct c. Qed.

(* while the codec accepts every frame this is Frames.parse_all: always so for HttpBody chunks *)
Lemma http_stream_valid : forall fuel c limit valid L,
  Forall (fun m => vld c valid m = true) (fst (parse_all fuel c limit L)) ->
  http_stream fuel c limit valid L = parse_all fuel c limit L.
Proof.
  induction fuel as [|f IH]; intros c limit valid L H; [reflexivity|]. cbn [http_stream parse_all] in *.
  destruct (parse c limit L) as [m r| |]; try reflexivity.
  specialize (IH c limit valid r). destruct (parse_all f c limit r) as [ms e]. cbn [fst] in *.
  inversion H as [|? ? Hm Hms]; subst. now rewrite Hm, IH.
Qed.
Lemma http_stream_body fuel limit valid L :
  http_stream fuel CBody limit valid L = parse_all fuel CBody limit L.
Proof. apply http_stream_valid, Forall_forall. reflexivity. Qed.
Lemma http_stream_all_valid : forall fuel c limit L,
  http_stream fuel c limit (fun _ => true) L = parse_all fuel c limit L.
Proof. intros fuel c limit L. apply http_stream_valid, Forall_forall. now destruct c. Qed.

(* the parser inverts the writer: nothing phantom, dropped, merged, reordered *)
Theorem http_stream_roundtrip : forall msgs fuel c limit valid,
  0 < limit -> (N.of_nat limit < 2 ^ 63)%N -> Forall (fits c limit) msgs ->
  Forall (fun m => valid m = true) msgs ->
  length (concat (map (write_next c) msgs)) < fuel ->
  http_stream fuel c limit valid (concat (map (write_next c) msgs)) = (msgs, SClean).
Proof.
  intros msgs fuel c limit valid Hl Hi Hf Hv Hfuel.
  rewrite http_stream_valid; rewrite parse_all_roundtrip by assumption; [reflexivity|].
  revert Hv. apply Forall_impl, valid_vld.
Qed.

Theorem http_recv_roundtrip c msgs limit valid sch e :
  0 < limit -> (N.of_nat limit < 2 ^ 63)%N -> Forall (fits c limit) msgs ->
  Forall (fun m => valid m = true) msgs ->
  let L := concat (map (write_next c) msgs) in
  http_recv_all (S (length L)) (HCfg c limit true true) valid (hst0 (Src L sch e)) = (map RFrame msgs, EndClean).
Proof.
  intros Hl Hi Hf Hv L.
  destruct (http_recv_is_parser c limit valid (Src L sch e) Hl Hi) as [H1 H2]. cbn [rem] in H1, H2.
  unfold L in *. rewrite http_stream_roundtrip in H1, H2 by (auto; lia).
  rewrite (surjective_pairing (http_recv_all _ _ _ _)), H1, (end_rel_clean _ H2). reflexivity.
Qed.

(* HttpBody uploads: the chunks concatenate to the upload, none empty, none above the limit *)
Theorem http_recv_upload limit valid L sch e :
  0 < limit -> (N.of_nat limit < 2 ^ 63)%N ->
  exists chunks, http_recv_all (S (length L)) (HCfg CBody limit true true) valid (hst0 (Src L sch e)) = (map RFrame chunks, EndClean) /\
                 concat chunks = L /\ Forall (fun m => 0 < length m <= limit) chunks.
Proof.
  intros Hl Hi.
  destruct (http_recv_is_parser CBody limit valid (Src L sch e) Hl Hi) as [H1 H2]. cbn [rem] in H1, H2.
  rewrite http_stream_body in H1, H2.
  destruct (parse_all_body (S (length L)) limit L Hl ltac:(lia)) as (P1 & P2 & P3). rewrite P1 in H2.
  exists (fst (parse_all (S (length L)) CBody limit L)).
  rewrite (surjective_pairing (http_recv_all _ _ _ _)), H1, (end_rel_clean _ H2). auto.
Qed.

Lemma read_all_spec : forall fuel limit b s, length (rem s) < fuel -> length b <= limit ->
  match read_all fuel limit b s with
  | RaOk out s' => out = b ++ rem s /\ length (b ++ rem s) <= limit
  | RaErr e _ => e = ETooLarge /\ limit < length (b ++ rem s)
  | RaFuel => False
  end.
Proof.
  induction fuel as [|f IH]; intros limit b s Hf Hb; [lia|]. cbn [read_all].
  destruct (read_any s) as [[ch eof] s1] eqn:R.
  pose proof (read1_split _ _ _ _ _ R) as Hs. pose proof (read_any_len _ _ _ _ R) as Hlen.
  rewrite <- Hs, app_assoc.
  destruct (Nat.ltb limit (length (b ++ ch))) eqn:C.
  - split; [reflexivity|]. rewrite app_length. lia.
  - destruct eof.
    + apply read1_eof_rem in R. rewrite R, app_nil_r. split; [reflexivity|lia].
    + apply read_any_noeof_progress in R.
      apply IH; [destruct ch; [congruence|cbn [length] in Hlen; lia]|lia].
Qed.

Lemma recv_single_first c limit valid s : c <> CBody ->
  exists s', recv_msg (HCfg c limit false true) valid (hst0 s) =
    if Nat.ltb limit (length (rem s)) then HStop ETooLarge (HSt [] s' false 1)
    else if valid (rem s) then HRet (RFrame (rem s)) (HSt [] s' true 1) else HStop EInvalid (HSt [] s' true 1).
Proof.
  intros Hc. unfold recv_msg, read_msg. cbn [withBody streamingClient rEOF hst0 hsrc hlimit hcodec rbuf recvCount].
  pose proof (read_all_spec (S (S (length (rem s)))) limit [] s ltac:(lia) ltac:(cbn; lia)) as R.
  destruct (read_all (S (S (length (rem s)))) limit [] s) as [out s'|e s'|]; cbn [app] in R; try contradiction; exists s'.
  - destruct R as [-> Hle]. replace (Nat.ltb limit (length (rem s))) with false by lia. destruct c; congruence.
  - destruct R as [-> Hlt]. now replace (Nat.ltb limit (length (rem s))) with true by lia.
Qed.

Theorem http_recv_single c limit valid s n :
  c <> CBody ->
  fst (http_recv_all (S (S n)) (HCfg c limit false true) valid (hst0 s)) = map RFrame (fst (single_request limit valid (rem s))) /\
  end_rel (snd (http_recv_all (S (S n)) (HCfg c limit false true) valid (hst0 s))) (snd (single_request limit valid (rem s))).
Proof.
  intros Hc. destruct (recv_single_first c limit valid s Hc) as [s' E].
  cbn [http_recv_all]. rewrite E. unfold single_request.
  destruct (Nat.ltb limit (length (rem s))); [cbn; auto|].
  destruct (valid (rem s)); cbn; auto.
Qed.

Lemma parse_proto_cut limit m j : length m <= limit -> (N.of_nat limit < 2 ^ 63)%N ->
  0 < j < length (write_proto m) -> parse_proto limit (firstn j (write_proto m)) = FErr EUnexpectedEOF.
Proof.
  intros Hm Hl Hj. unfold write_proto in *. set (ev := encode_varint (N.of_nat (length m))) in *.
  pose proof (encode_varint_len (N.of_nat (length m))) as Hlen. fold ev in Hlen.
  rewrite app_length in Hj. rewrite firstn_app. destruct (Nat.ltb j (length ev)) eqn:C.
  - (* cut inside the length: every byte left has the continuation bit *)
    replace (j - length ev) with 0 by lia. cbn [firstn]. rewrite app_nil_r.
    rewrite parse_proto_cons
      by (intros E; apply (f_equal (@length N)) in E; rewrite firstn_length in E; cbn [length] in E; lia).
    unfold consume_varint. rewrite cv_all_cont; [reflexivity|rewrite firstn_length; lia|].
    apply enc_f_prefix_cont, Nat.ltb_lt, C.
  - rewrite firstn_all2 by lia. subst ev. rewrite parse_proto_header by assumption.
    now replace (Nat.ltb _ (length m)) with true by (rewrite firstn_length; lia).
Qed.

Lemma json_step_depth st c st' : 1 <= depth st -> json_step st c = JCont st' -> 1 <= depth st'.
Proof.
  unfold json_step. intros Hd H.
  destruct (esc st); [inversion H; subst; cbn; lia|].
  destruct (inStr st).
  { destruct (c =? 92)%N; [inversion H; subst; cbn; lia|]. destruct (c =? 34)%N; inversion H; subst; cbn; lia. }
  destruct (c =? 123)%N; [inversion H; subst; cbn; lia|].
  destruct (c =? 125)%N.
  { destruct (depth st) as [|[|d]]; try discriminate. inversion H; subst. cbn. lia. }
  destruct (c =? 34)%N; inversion H; subst; cbn; lia.
Qed.
Lemma json_end_depth : forall room st l i st', 1 <= depth st -> json_scan room st l i = JEnd st' -> 1 <= depth st'.
Proof.
  induction room as [|r IH]; intros st l i st' Hd H; cbn [json_scan] in H; [discriminate|].
  destruct l as [|c l']; [inversion H; subst; exact Hd|].
  destruct (json_step st c) eqn:J; try discriminate. eapply IH; [|exact H]. eapply json_step_depth; eauto.
Qed.
(* a frame that ends exactly at the end of l: every strict prefix leaves the scanner waiting *)
Lemma json_prefix_end : forall room st l i n j, json_scan room st l i = JFrame n -> n = i + length l -> j < length l ->
  exists st', json_scan room st (firstn j l) i = JEnd st'.
Proof.
  induction room as [|r IH]; intros st l i n j H Hn Hj; cbn [json_scan] in H; [discriminate|].
  destruct l as [|c l']; [discriminate|]. cbn [length] in *.
  destruct j as [|j']; [cbn [firstn json_scan]; eauto|]. cbn [firstn json_scan].
  destruct (json_step st c) eqn:J; try discriminate.
  - eapply IH; [exact H|lia|lia].
  - inversion H; subst. lia.
Qed.

Definition json_obj (limit : nat) (m : bytes) : Prop := json_msg limit m /\ hd 0%N m = 123%N.

Lemma parse_json_cut limit m j : json_obj limit m -> 0 < j < length m ->
  parse_json limit (firstn j m) = FErr EUnexpectedEOF.
Proof.
  intros [Hm Hh] Hj. unfold json_msg in Hm. unfold parse_json.
  destruct m as [|c m']; [cbn in Hj; lia|]. cbn [hd] in Hh. subst c.
  destruct limit as [|r]; [discriminate|]. destruct j as [|j']; [lia|].
  cbn [firstn json_scan] in *. change (json_step jst0 123%N) with (JCont (JSt 1 false false)) in *. cbv iota in *.
  cbn [length] in *.
  destruct (json_prefix_end r (JSt 1 false false) m' 1 _ j' Hm ltac:(lia) ltac:(lia)) as [st' E].
  rewrite E. assert (D : 1 <= depth st') by (eapply json_end_depth; [|exact E]; cbn; lia).
  destruct (depth st'); [lia|reflexivity].
Qed.

(* a message of the stream as the client writes it: within the limit; a JSON text is an object *)
Definition wellformed (c : codec) (limit : nat) (m : bytes) : Prop :=
  match c with CProto => length m <= limit | CJSON => json_obj limit m | CBody => False end.
Lemma wellformed_fits c limit m : wellformed c limit m -> fits c limit m.
Proof. destruct c; cbn; auto. intros [H _]. exact H. Qed.

Lemma parse_cut c limit m j : wellformed c limit m -> (N.of_nat limit < 2 ^ 63)%N ->
  0 < j < length (write_next c m) -> parse c limit (firstn j (write_next c m)) = FErr EUnexpectedEOF.
Proof.
  destruct c; cbn [wellformed write_next parse]; intros H Hl Hj.
  - now apply parse_proto_cut.
  - now apply parse_json_cut.
  - contradiction.
Qed.

Theorem http_stream_truncated pre fuel c limit valid m j :
  0 < limit -> (N.of_nat limit < 2 ^ 63)%N -> Forall (wellformed c limit) pre -> wellformed c limit m ->
  Forall (fun x => valid x = true) pre -> 0 < j < length (write_next c m) ->
  length (concat (map (write_next c) pre) ++ firstn j (write_next c m)) < fuel ->
  http_stream fuel c limit valid (concat (map (write_next c) pre) ++ firstn j (write_next c m)) = (pre, SErr EUnexpectedEOF).
Proof.
  intros Hl Hi Hw Hm Hv Hj Hfuel.
  assert (E : parse_all fuel c limit (concat (map (write_next c) pre) ++ firstn j (write_next c m)) = (pre, SErr EUnexpectedEOF)).
  { apply parse_all_written; auto; [revert Hw; apply Forall_impl, wellformed_fits|].
    intros f. cbn [parse_all]. now rewrite parse_cut. }
  rewrite http_stream_valid; rewrite E; [reflexivity|]. revert Hv. apply Forall_impl, valid_vld.
Qed.

(* the same for every cut offset k of the complete body that falls strictly inside message m *)
Corollary http_stream_cut_offset c limit valid pre m post k :
  0 < limit -> (N.of_nat limit < 2 ^ 63)%N -> Forall (wellformed c limit) pre -> wellformed c limit m ->
  Forall (fun x => valid x = true) pre ->
  length (concat (map (write_next c) pre)) < k < length (concat (map (write_next c) (pre ++ [m]))) ->
  let L := firstn k (concat (map (write_next c) (pre ++ m :: post))) in
  http_stream (S (length L)) c limit valid L = (pre, SErr EUnexpectedEOF).
Proof.
  intros Hl Hi Hw Hm Hv Hk. cbv zeta.
  rewrite map_app, concat_app in *. cbn [map concat] in *. rewrite app_nil_r in Hk. rewrite app_length in Hk.
  set (A := concat (map (write_next c) pre)) in *.
  replace k with (length A + (k - length A)) by lia. rewrite firstn_app_len.
  rewrite firstn_app. replace (k - length A - length (write_next c m)) with 0 by lia. cbn [firstn]. rewrite app_nil_r.
  apply http_stream_truncated; auto; lia.
Qed.

(* io.ReadFull over a reader with a tail: all [need] bytes, or the error of an exhausted stream *)
Lemma read_full_x_spec need x :
  match read_full_x need x with
  | Some (got, None, x') =>
      got = firstn need (rem (xs x)) /\ rem (xs x') = skipn need (rem (xs x)) /\ need <= length (rem (xs x)) /\ xtail x' = xtail x
  | Some (got, Some e, x') =>
      length (rem (xs x)) < need /\ e = short_err (xtail x) (negb (is_nil (rem (xs x)))) /\ rem (xs x') = [] /\ xtail x' = xtail x
  | None => False
  end.
Proof.
  unfold read_full_x.
  pose proof (read_full_total (S (length (rem (xs x)))) need [] (xs x) ltac:(lia)) as T.
  destruct (read_full (S (length (rem (xs x)))) need [] (xs x)) as [[[got ok] s']|] eqn:R; [|congruence].
  apply read_full_inv in R. cbn [app] in R. destruct ok, R as (-> & R2 & R3); cbn [xs xtail]; auto.
Qed.

Lemma parse_gframe_short limit t R : length R < 5 ->
  parse_gframe limit t R =
  if is_nil R then match t with TClean => GEnd | _ => GErr (short_err t false) end else GErr (short_err t true).
Proof. destruct R as [|f0 [|a [|b [|c [|d r]]]]]; cbn [length]; try reflexivity. lia. Qed.

Lemma gmessage_err gunzip valid flag p e : gmessage gunzip valid flag p = inr e -> e <> EEOF.
Proof. unfold gmessage. destruct (if (flag =? 1)%N then _ else _) as [m|]; [destruct (valid m)|]; congruence. Qed.

(* one RecvMsg, read by the frame parser's answer on the unread rest R *)
Definition gstep_ok (limit : nat) gunzip (valid : bytes -> bool) (t : tail) (R : bytes) (r : gcall) : Prop :=
  match parse_gframe (N.of_nat limit) t R with
  | GMsg flag p rest =>
      match gmessage gunzip valid flag p with
      | inl m => exists x', r = GRet m x' /\ rem (xs x') = rest /\ xtail x' = t
      | inr e => exists x', r = GStop e x'
      end
  | GEnd => exists x', r = GStop EEOF x'
  | GErr _ => exists e x', r = GStop e x' /\ e <> EEOF
  end.

Lemma grpc_recv1_step limit gunzip valid x :
  gstep_ok limit gunzip valid (xtail x) (rem (xs x)) (grpc_recv1 limit gunzip valid x).
Proof.
  unfold grpc_recv1. pose proof (read_full_x_spec 5 x) as H5.
  destruct (read_full_x 5 x) as [[[hd [e|]] x1]|]; try contradiction; unfold gstep_ok.
  - destruct H5 as (Hlen & -> & _). rewrite (parse_gframe_short _ _ _ Hlen).
    destruct (rem (xs x)), (xtail x); cbn; eauto; do 2 eexists; (split; [reflexivity|discriminate]).
  - destruct H5 as (-> & Hr & Hlen & Ht).
    destruct (rem (xs x)) as [|flag [|a [|b [|c [|d r]]]]]; cbn [length] in Hlen; try lia.
    cbn [firstn skipn parse_gframe] in *.
    destruct (N.of_nat limit <? gun_be32 a b c d)%N. { do 2 eexists. split; [reflexivity|discriminate]. }
    pose proof (read_full_x_spec (N.to_nat (gun_be32 a b c d)) x1) as HP. rewrite Hr, Ht in HP.
    destruct (read_full_x (N.to_nat (gun_be32 a b c d)) x1) as [[[p [e|]] x2]|]; try contradiction.
    + destruct HP as (Hshort & -> & _). replace (Nat.ltb (length r) _) with true by lia.
      do 2 eexists. split; [reflexivity|]. destruct (xtail x), r; discriminate.
    + destruct HP as (-> & Hr2 & Hfull & Ht2). replace (Nat.ltb (length r) _) with false by lia.
      unfold gmessage. destruct (if (flag =? 1)%N then _ else _) as [m|]; [destruct (valid m)|]; eauto.
Qed.

(* clean end against clean end, error against error (on gRPC the class of a framing error is the
   transport's: a cut inside the 5-byte header is reported as a Canceled status) *)
Definition end_sim (e : rend) (p : send) : Prop :=
  match e, p with EndClean, SClean => True | EndErr _, SErr _ => True | _, _ => False end.

Lemma parse_gframe_progress limit t R flag p rest : parse_gframe limit t R = GMsg flag p rest -> length rest < length R.
Proof.
  unfold parse_gframe. destruct R as [|f0 [|a [|b [|c [|d r]]]]]; try discriminate; try (destruct t; discriminate).
  destruct (limit <? gun_be32 a b c d)%N; [discriminate|].
  destruct (Nat.ltb (length r) (N.to_nat (gun_be32 a b c d))); [discriminate|].
  intros H. inversion H; subst. rewrite skipn_length. cbn [length]. lia.
Qed.

Theorem grpc_recv_refines : forall fuel limit gunzip valid x,
  length (rem (xs x)) < fuel ->
  fst (grpc_recv_all fuel limit gunzip valid x) = fst (grpc_stream fuel limit gunzip valid (xtail x) (rem (xs x))) /\
  end_sim (snd (grpc_recv_all fuel limit gunzip valid x)) (snd (grpc_stream fuel limit gunzip valid (xtail x) (rem (xs x)))).
Proof.
  induction fuel as [|f IH]; intros limit gunzip valid x Hf; [lia|].
  cbn [grpc_recv_all grpc_stream].
  pose proof (grpc_recv1_step limit gunzip valid x) as S. unfold gstep_ok in S.
  destruct (parse_gframe (N.of_nat limit) (xtail x) (rem (xs x))) as [flag p rest| |e'] eqn:Hp.
  - destruct (gmessage gunzip valid flag p) as [m|e] eqn:Hg.
    + destruct S as (x' & -> & Hr & Ht). pose proof (parse_gframe_progress _ _ _ _ _ _ Hp) as Hprog.
      specialize (IH limit gunzip valid x' ltac:(rewrite Hr; lia)). rewrite Hr, Ht in IH.
      destruct (grpc_recv_all f limit gunzip valid x') as [ms e].
      destruct (grpc_stream f limit gunzip valid (xtail x) rest) as [ms' e'].
      cbn [fst snd] in *. destruct IH as [-> IH2]. auto.
    + destruct S as (x' & ->). apply gmessage_err in Hg. destruct e; cbn; auto; congruence.
  - destruct S as (x' & ->). cbn. auto.
  - destruct S as (e & x' & -> & Hne). destruct e; cbn; auto; congruence.
Qed.

Lemma parse_gframe_frame limit t flag m R : (N.of_nat (length m) <= limit)%N -> (N.of_nat (length m) < 2 ^ 32)%N ->
  parse_gframe limit t (gframe flag m ++ R) = GMsg flag m R.
Proof.
  intros Hl H32. unfold gframe, gbe32. cbn [app parse_gframe]. unfold gun_be32. rewrite (be32_inv _ H32), Nat2N.id.
  replace (limit <? N.of_nat (length m))%N with false by lia.
  replace (Nat.ltb (length (m ++ R)) (length m)) with false by (rewrite app_length; lia).
  now rewrite firstn_app_exact, skipn_app_exact.
Qed.

Lemma gframe_wf flag w : (flag < 256)%N -> Forall (fun b => (b < 256)%N) w -> Forall (fun b => (b < 256)%N) (gframe flag w).
Proof.
  intros Hf Hw. unfold gframe, gbe32. constructor; [exact Hf|].
  repeat (constructor; [apply N.mod_lt; lia|]). exact Hw.
Qed.

Section Gzip.
  (* the negotiated compressor and decompressor are an inverse pair (oracle) *)
  Variable gzip : bytes -> bytes.
  Variable gunzip : bytes -> option bytes.
  Hypothesis gunzip_gzip : forall m, gunzip (gzip m) = Some m.

  Definition comp_pair (on : bool) : option (bytes -> bytes) * option (bytes -> option bytes) :=
    if on then (Some gzip, Some gunzip) else (None, None).

  Definition sendable (limit : nat) (on : bool) (m : bytes) : Prop :=
    let w := if on then gzip m else m in length w <= limit /\ (N.of_nat (length w) < 2 ^ 32)%N.

  Lemma gmessage_send on valid m : valid m = true ->
    gmessage (snd (comp_pair on)) valid (if on then 1%N else 0%N) (if on then gzip m else m) = inl m.
  Proof.
    intros V. destruct on; unfold gmessage, comp_pair; cbn [snd].
    - rewrite N.eqb_refl, gunzip_gzip. now rewrite V.
    - change (0 =? 1)%N with false. cbv iota. now rewrite V.
  Qed.

  Lemma grpc_send1_form on m : grpc_send1 (fst (comp_pair on)) m = gframe (if on then 1%N else 0%N) (if on then gzip m else m).
  Proof. destruct on; reflexivity. Qed.

  (* the frames of a sent sequence followed by a rest R at which the stream stops *)
  Lemma grpc_stream_written msgs fuel limit on valid R t e :
    Forall (sendable limit on) msgs -> Forall (fun m => valid m = true) msgs ->
    (forall f, grpc_stream (S f) limit (snd (comp_pair on)) valid t R = ([], e)) ->
    length (grpc_send (fst (comp_pair on)) msgs ++ R) < fuel ->
    grpc_stream fuel limit (snd (comp_pair on)) valid t (grpc_send (fst (comp_pair on)) msgs ++ R) = (msgs, e).
  Proof.
    intros Hs Hv. apply (loop_written (fun f => grpc_stream f limit (snd (comp_pair on)) valid t)).
    apply Forall_forall. intros m Hm f R'. rewrite Forall_forall in Hs, Hv. destruct (Hs m Hm) as [Hm1 Hm2].
    rewrite grpc_send1_form. cbn [grpc_stream].
    pose proof (fun H => parse_gframe_frame (N.of_nat limit) t (if on then 1%N else 0%N) _ R' H Hm2) as PF.
    specialize (PF ltac:(lia)).
    rewrite PF, (gmessage_send on valid m (Hv m Hm)). split; [reflexivity|exact (parse_gframe_progress _ _ _ _ _ _ PF)].
  Qed.

  Corollary grpc_stream_sent limit on valid msgs :
    Forall (sendable limit on) msgs -> Forall (fun m => valid m = true) msgs ->
    let L := grpc_send (fst (comp_pair on)) msgs in
    grpc_stream (S (length L)) limit (snd (comp_pair on)) valid TClean L = (msgs, SClean).
  Proof.
    intros Hs Hv. cbv zeta. rewrite <- (app_nil_r (grpc_send _ msgs)). apply grpc_stream_written; auto.
  Qed.

  Lemma parse_gframe_cut limit flag w j : (N.of_nat (length w) < 2 ^ 32)%N -> 0 < j < length (gframe flag w) ->
    parse_gframe limit TClean (firstn j (gframe flag w)) = GErr EUnexpectedEOF \/
    parse_gframe limit TClean (firstn j (gframe flag w)) = GErr ETooLarge.
  Proof.
    unfold gframe, gbe32. intros Hlt Hj. cbn [app length] in *.
    destruct j as [|[|[|[|[|j']]]]]; cbn [firstn parse_gframe short_err]; auto; [lia|].
    unfold gun_be32. rewrite (be32_inv _ Hlt), Nat2N.id. destruct (limit <? _)%N; auto.
    replace (Nat.ltb (length (firstn j' w)) (length w)) with true by (rewrite firstn_length; lia). auto.
  Qed.

  (* a body cut strictly inside frame m: the frames before it, then an error *)
  Theorem grpc_stream_truncated limit on valid pre m j :
    Forall (sendable limit on) pre -> Forall (fun x => valid x = true) pre ->
    (N.of_nat (length (if on then gzip m else m)) < 2 ^ 32)%N ->
    0 < j < length (grpc_send1 (fst (comp_pair on)) m) ->
    let L := grpc_send (fst (comp_pair on)) pre ++ firstn j (grpc_send1 (fst (comp_pair on)) m) in
    exists e, grpc_stream (S (length L)) limit (snd (comp_pair on)) valid TClean L = (pre, SErr e).
  Proof.
    intros Hs Hv H32 Hj. cbv zeta. rewrite grpc_send1_form in *.
    destruct (parse_gframe_cut (N.of_nat limit) _ _ j H32 Hj) as [E | E]; eexists;
      (apply grpc_stream_written; auto; intros f; cbn [grpc_stream]; now rewrite E).
  Qed.

  Definition wire (on : bool) (m : bytes) : byte * bytes := if on then (1%N, gzip m) else (0%N, m).
  Definition small (on : bool) (m : bytes) : Prop := (N.of_nat (length (snd (wire on m))) < 2 ^ 32)%N.

  (* gRPC: the response body is exactly one frame per reply, in order, nothing else *)
  Theorem grpc_resp_frames : forall out fuel on, Forall (small on) out ->
    length (grpc_send (fst (comp_pair on)) out) < fuel ->
    parse_grpc_resp fuel (grpc_send (fst (comp_pair on)) out) = Some (map (wire on) out).
  Proof.
    induction out as [|m ms IH]; intros fuel on Hs Hf.
    - destruct fuel; [lia|]. reflexivity.
    - inversion Hs as [|? ? Hm Hms]; subst. destruct fuel as [|f]; [lia|].
      unfold grpc_send in *. cbn [map concat parse_grpc_resp] in Hf |- *. rewrite grpc_send1_form in Hf |- *.
      rewrite parse_gframe_frame by (destruct on; unfold small in Hm; cbn in Hm; lia).
      rewrite app_length in Hf. unfold gframe in Hf. cbn [length] in Hf.
      rewrite IH by (auto; lia). now destruct on.
  Qed.

  (* gRPC-web: the same frames followed by exactly one trailer frame, nothing after it *)
  Theorem web_resp_frames : forall out fuel on trailer, Forall (small on) out -> (N.of_nat (length trailer) < 2 ^ 32)%N ->
    length (grpc_send (fst (comp_pair on)) out ++ gframe 128 trailer) < fuel ->
    parse_web_resp fuel (grpc_send (fst (comp_pair on)) out ++ gframe 128 trailer) = Some (map (wire on) out, trailer).
  Proof.
    induction out as [|m ms IH]; intros fuel on trailer Hs Ht Hf.
    - destruct fuel; [lia|]. cbn [grpc_send map concat app parse_web_resp].
      pose proof (parse_gframe_frame (2 ^ 32) TClean 128 trailer [] ltac:(lia) Ht) as P. rewrite app_nil_r in P. rewrite P.
      reflexivity.
    - inversion Hs as [|? ? Hm Hms]; subst. destruct fuel as [|f]; [lia|].
      unfold grpc_send in *. cbn [map concat parse_web_resp] in Hf |- *. rewrite grpc_send1_form, <- app_assoc in Hf |- *.
      rewrite parse_gframe_frame by (destruct on; unfold small in Hm; cbn in Hm; lia).
      replace (128 <=? (if on then 1 else 0))%N with false by (now destruct on).
      rewrite app_length in Hf. unfold gframe in Hf at 1. cbn [length] in Hf.
      rewrite IH by (auto; lia). now destruct on.
  Qed.

  (* text mode: the body is one base64 stream of exactly those bytes (the encoder is closed) *)
  Theorem web_resp_text on out trailer :
    Forall (fun m => Forall (fun b => (b < 256)%N) (snd (wire on m))) out -> Forall (fun b => (b < 256)%N) trailer ->
    b64_decode false true (web_resp true (fst (comp_pair on)) out true trailer) =
    Some (web_resp false (fst (comp_pair on)) out true trailer).
  Proof.
    intros Ho Ht. unfold web_resp. apply b64_roundtrip.
    apply Forall_app. split; [|apply gframe_wf; [lia|exact Ht]].
    unfold grpc_send. induction out as [|m ms IH]; [constructor|].
    inversion Ho as [|? ? Hm Hms]; subst. cbn [map concat]. apply Forall_app. split; [|auto].
    rewrite grpc_send1_form. destruct on; apply gframe_wf; (lia || exact Hm).
  Qed.
End Gzip.

Theorem web_recv_refines text body sch eofwd limit gunzip valid :
  let x := web_src text body sch eofwd in
  let '(L, t) := if text then web_text_decode body else (body, TClean) in
  fst (grpc_recv_all (S (length L)) limit gunzip valid x) = fst (grpc_stream (S (length L)) limit gunzip valid t L) /\
  end_sim (snd (grpc_recv_all (S (length L)) limit gunzip valid x)) (snd (grpc_stream (S (length L)) limit gunzip valid t L)).
Proof.
  cbv zeta. unfold web_src. destruct text.
  - destruct (web_text_decode body) as [d t].
    apply (grpc_recv_refines (S (length d)) limit gunzip valid (XSrc (Src d sch eofwd) t)). cbn. lia.
  - apply (grpc_recv_refines (S (length body)) limit gunzip valid (XSrc (Src body sch eofwd) TClean)). cbn. lia.
Qed.

Local Open Scope N_scope.
Lemma b64_char_not_nl v : is_nl (b64_char false v) = false.
Proof.
  unfold is_nl, b64_char. destruct (v <? 26) eqn:A; [lia|]. destruct (v <? 52) eqn:B; [lia|].
  destruct (v <? 62) eqn:C; [lia|]. destruct (v =? 62); reflexivity.
Qed.
Lemma filter_b64_encode m :
  filter (fun c => negb (is_nl c)) (b64_encode false true m) = b64_encode false true m.
Proof.
  induction m as [|a|a b|a b c r IH] using list_ind3; cbn [b64_encode filter app];
    rewrite ?b64_char_not_nl; cbn [negb]; now rewrite ?IH.
Qed.

(* on input that the padded standard decoder accepts, the stream decoder returns the same bytes *)
Lemma b64_decode_stream : forall fuel s d, b64_decode_f fuel false true s = Some d -> b64_stream fuel s = (d, TClean).
Proof.
  induction fuel as [|f IH]; intros s d H; [discriminate|]. cbn [b64_decode_f b64_stream] in *.
  destruct s as [|w [|x [|y [|z r]]]]; try discriminate; [now inversion H|].
  destruct (b64_val false w), (b64_val false x); try discriminate.
  rewrite !andb_true_r in H.
  destruct (y =? 61) eqn:Y; cbn [andb] in H.
  - destruct ((z =? 61) && is_nil r); [now inversion H|].
    apply N.eqb_eq in Y. subst y. discriminate.
  - destruct (b64_val false y); [|discriminate].
    destruct (z =? 61) eqn:Z; cbn [andb] in H.
    + destruct (is_nil r); [now inversion H|]. apply N.eqb_eq in Z. subst z. discriminate.
    + destruct (b64_val false z); [|discriminate]. destruct (b64_decode_f f false true r) eqn:R; [|discriminate].
      rewrite (IH _ _ R). now inversion H.
Qed.

Theorem b64_stream_roundtrip fuel m : Forall (fun b => b < 256) m ->
  (length m < fuel)%nat -> b64_stream fuel (b64_encode false true m) = (m, TClean).
Proof. intros H Hf. now apply b64_decode_stream, b64_roundtrip_f. Qed.
Local Close Scope N_scope.

Theorem ws_recv_normal_close valid msgs : Forall (fun m => valid m = true) msgs ->
  ws_recv_all valid (map WData msgs ++ [WClose 1000]) = (msgs, EndClean).
Proof.
  induction 1 as [|m ms Hm _ IH]; [reflexivity|]. cbn [map app ws_recv_all]. now rewrite Hm, IH.
Qed.
Theorem ws_recv_broken valid msgs ev : Forall (fun m => valid m = true) msgs ->
  ev = WAbort \/ (exists c, ev = WClose c /\ c <> 1000%N) ->
  exists e, ws_recv_all valid (map WData msgs ++ [ev]) = (msgs, EndErr e).
Proof.
  intros H Hev. induction H as [|m ms Hm _ IH].
  - cbn [map app ws_recv_all]. destruct Hev as [-> | (c & -> & Hc)]; [eauto|].
    replace (c =? 1000)%N with false by lia. eauto.
  - destruct IH as [e IH]. exists e. cbn [map app ws_recv_all]. now rewrite Hm, IH.
Qed.
Theorem ws_send_shape out code :
  exists frames, ws_send out code = frames ++ [WClose code] /\ frames = map WData out /\ length frames = length out.
Proof. exists (map WData out). repeat split; auto. apply map_length. Qed.
