From Larking Require Import Base.GoSem Base.B64 Model.Schema Model.Params Spec.Json3
  Proofs.ParamsJsonProofs Proofs.ParamsBytesProofs.
Local Open Scope N_scope.

Definition kind_iclass (k : skind) : option iclass :=
  match k with
  | KInt32 | KSint32 | KSfixed32 => Some I32
  | KInt64 | KSint64 | KSfixed64 => Some I64
  | KUint32 | KFixed32 => Some U32
  | KUint64 | KFixed64 => Some U64
  | _ => None
  end.
(* kinds whose text form is a grammar here (the others go to a library oracle) *)
Definition exact_kind (k : skind) : bool :=
  match k with KFloat | KDouble | KBytes | KMessage _ | KGroup _ => false | _ => true end.

(* base64 text as Go's decoder reads it: CR / LF skipped, one alphabet, padded or not *)
Definition b64_text (b : bytes) (txt : bytes) : Prop :=
  exists url pad, b64_decode url pad (strip_crlf txt) = Some b.

Definition json3_text (sch : schema) (k : skind) (v : pval) (txt : bytes) : Prop :=
  match k with
  | KBool => exists b, v = PScalar (SBool b) /\ json3_bool b txt
  | KString => v = PScalar (SStr txt)
  | KBytes => exists b, v = PScalar (SByt b) /\ b64_text b txt
  | KEnum e => exists z, v = PScalar (SEnum z) /\
      (int32_text z txt \/
       ((forall z', ~ int32_text z' txt) /\ exists ed, nth_error (s_enums sch) e = Some ed /\ name_text (e_vals ed) z txt))
  | KFloat | KDouble | KMessage _ | KGroup _ => False
  | _ => match kind_iclass k with
         | Some c => exists z, v = PScalar (SInt z) /\ json3_int (iclass_unsigned c) (iclass_lo c) (iclass_hi c) z txt
         | None => False
         end
  end.

Section Oracles.
Variable ofloat : bool -> bytes -> option N.
Variable owkt : wkt -> bool -> bytes -> option subtree.

Lemma int_param_exact c txt v :
  int_param c txt = Ok v <-> exists z, v = PScalar (SInt z) /\ json3_int (iclass_unsigned c) (iclass_lo c) (iclass_hi c) z txt.
Proof.
  unfold int_param, lift. split.
  - destruct (json_iclass c txt) as [z|] eqn:E; cbn [option_map]; [|discriminate].
    intros H. inversion H; subst. exists z. split; [reflexivity|]. apply json_iclass_exact. exact E.
  - intros [z [-> H]]. apply json_iclass_exact in H. rewrite H. reflexivity.
Qed.

Lemma null_is_int32 : json_iclass I32 lit_null = Some 0%Z.
Proof. vm_compute. reflexivity. Qed.

Lemma parse_enum_exact sch e txt v :
  parse_enum sch e txt = Ok v <-> json3_text sch (KEnum e) v txt.
Proof.
  unfold parse_enum, json3_text, int32_text. split.
  - destruct (json_iclass I32 txt) as [z|] eqn:E.
    + intros H. inversion H; subst. exists z. split; [reflexivity|]. left.
      apply (json_iclass_exact I32). exact E.
    + destruct (nth_error (s_enums sch) e) as [ed|] eqn:En; [|discriminate].
      destruct (e_null ed && bytes_eqb txt lit_null) eqn:Nl.
      * apply andb_true_iff in Nl. destruct Nl as [_ Nl]. apply bytes_eqb_eq in Nl. subst.
        rewrite null_is_int32 in E. discriminate.
      * unfold lift. destruct (enum_by_name (e_vals ed) txt) as [z|] eqn:Eb; cbn [option_map]; [|discriminate].
        intros H. inversion H; subst. exists z. split; [reflexivity|]. right. split.
        -- intros z' Hz. apply (json_iclass_exact I32) in Hz. congruence.
        -- exists ed. split; [reflexivity|]. apply enum_by_name_exact. exact Eb.
  - intros [z [-> [H|[Hn [ed [En Hname]]]]]].
    + apply (json_iclass_exact I32) in H. rewrite H. reflexivity.
    + destruct (json_iclass I32 txt) as [z'|] eqn:E.
      * exfalso. apply (Hn z'). apply (json_iclass_exact I32). exact E.
      * rewrite En.
        destruct (e_null ed && bytes_eqb txt lit_null) eqn:Nl.
        -- apply andb_true_iff in Nl. destruct Nl as [_ Nl]. apply bytes_eqb_eq in Nl. subst.
           rewrite null_is_int32 in E. discriminate.
        -- apply enum_by_name_exact in Hname. rewrite Hname. reflexivity.
Qed.

(* the kinds with a grammar: accepted exactly the texts of the grammar, with exactly that value *)
Theorem conv_exact : forall sch k txt v, exact_kind k = true ->
  (parse_kind ofloat owkt sch k txt = Ok v <-> json3_text sch k v txt).
Proof.
  intros sch k txt v Hk. destruct k; try discriminate; cbn [parse_kind json3_text kind_iclass];
    try apply int_param_exact.
  - unfold lift. split.
    + destruct (json_bool txt) as [b|] eqn:E; cbn [option_map]; [|discriminate].
      intros H. inversion H; subst. exists b. split; [reflexivity|]. apply json_bool_exact. exact E.
    + intros [b [-> H]]. apply json_bool_exact in H. rewrite H. reflexivity.
  - split; intros H; [inversion H; reflexivity|subst; reflexivity].
  - apply parse_enum_exact.
Qed.

(* bytes: every spelling of every byte string is accepted, with that value *)
Theorem bytes_spellings : forall sch url pad m, Forall (fun b => b < 256) m ->
  parse_kind ofloat owkt sch KBytes (b64_encode url pad m) = Ok (PScalar (SByt m)).
Proof.
  intros. cbn [parse_kind]. rewrite parse_bytes_all_spellings by assumption. reflexivity.
Qed.

(* no text outside the grammar is accepted as some value (bool, the ten integer kinds, string,
   bytes, enum) *)
Theorem reject_not_coerce : forall sch k txt v, (exact_kind k = true \/ k = KBytes) ->
  parse_kind ofloat owkt sch k txt = Ok v -> json3_text sch k v txt.
Proof.
  intros sch k txt v [Hk| ->] H.
  - apply conv_exact; assumption.
  - cbn [parse_kind] in H. unfold lift in H. cbn [json3_text].
    destruct (parse_bytes txt) as [b|] eqn:E; cbn [option_map] in H; [|discriminate].
    inversion H; subst. exists b. split; [reflexivity|]. apply parse_bytes_sound in E. exact E.
Qed.

(* float / double and the message-typed well-known types: what is larking's own *)
Theorem oracle_kinds : forall sch txt,
  parse_kind ofloat owkt sch KFloat txt = match ofloat true txt with Some b => Ok (PScalar (SFlt b)) | None => Err EOther end /\
  parse_kind ofloat owkt sch KDouble txt = match ofloat false txt with Some b => Ok (PScalar (SFlt b)) | None => Err EOther end /\
  forall m, parse_kind ofloat owkt sch (KMessage m) txt =
    match msg_wkt sch m with
    | WNone => Err EOther                     (* any other message type cannot be a parameter *)
    | w => match owkt w (wkt_quoted w && needs_quote txt) txt with Some t => Ok (PMsg t) | None => Err EOther end
    end.
Proof.
  intros sch txt. repeat split.
  - cbn [parse_kind]. destruct (ofloat true txt); reflexivity.
  - cbn [parse_kind]. destruct (ofloat false txt); reflexivity.
  - intros m. cbn [parse_kind]. destruct (msg_wkt sch m); try reflexivity;
      match goal with |- context [owkt ?w ?q txt] => destruct (owkt w q txt); reflexivity end.
Qed.

End Oracles.

Lemma quoted_types : forall w, wkt_quoted w = true <->
  (w = WTimestamp \/ w = WDuration \/ w = WBytesValue \/ w = WStringValue \/ w = WFieldMask).
Proof.
  intros w. split.
  - destruct w; cbn; intros H; try discriminate; auto 6.
  - intros [H|[H|[H|[H|H]]]]; subst; reflexivity.
Qed.
Lemma needs_quote_spec : forall txt, needs_quote txt = false <->
  (2 <= length txt)%nat /\ hd 0 txt = 34 /\ last txt 0 = 34.
Proof.
  intros txt. destruct txt as [|a [|b r]]; cbn [needs_quote length hd].
  - split; [discriminate|intros [H _]; lia].
  - split; [discriminate|intros [H _]; lia].
  - rewrite orb_false_iff, !negb_false_iff, !N.eqb_eq. split.
    + intros [H1 H2]. repeat split; auto; lia.
    + intros [_ [H1 H2]]. split; auto.
Qed.
