(* Model/Status.v: the status tables (gRPC code to HTTP status, to WebSocket close code) are total
   over every code, a 17-entry table behind a bounds check; the five-byte frames parse back. *)
From Larking Require Import Base.GoSem Model.Status.
Local Open Scope Z_scope.

Lemma in_range_list c : 0 <= c < 17 -> In c (map Z.of_nat (seq 0 17)).
Proof. intros H. apply in_map_iff. exists (Z.to_nat c). split; [lia|]. apply in_seq. lia. Qed.

(* a table of 17 entries with a bounds check agrees with its reference: the entries by evaluation, the rest by the check *)
Lemma table_total (f : Z -> outcome Z) (g : Z -> Z) :
  forallb (fun c => match f c with Ok v => v =? g c | _ => false end) (map Z.of_nat (seq 0 17)) = true ->
  (forall c, 17 <= c -> f c = Ok (g c)) -> forall c, 0 <= c -> f c = Ok (g c).
Proof.
  intros T G c H. destruct (Z_lt_ge_dec c 17) as [L|L]; [|apply G; lia].
  pose proof (proj1 (forallb_forall _ _) T c (in_range_list c ltac:(lia))) as P. cbn beta in P.
  destruct (f c); try discriminate. f_equal. lia.
Qed.

Theorem http_status_total c : 0 <= c -> http_status_code c = Ok (ref_http c).
Proof.
  revert c. apply table_total; [vm_compute; reflexivity|]. intros c G.
  unfold http_status_code. cbn [length codeToHTTPStatus]. replace (Z.of_nat 17 <=? c) with true by lia.
  unfold ref_http. repeat match goal with |- context [?a =? ?b] => replace (a =? b) with false by lia end. reflexivity.
Qed.
Theorem ws_status_total c : 0 <= c -> ws_status_code c = Ok (ref_ws c).
Proof.
  revert c. apply table_total; [vm_compute; reflexivity|]. intros c G.
  unfold ws_status_code. cbn [length codeToHTTPStatus]. replace (Z.of_nat 17 <=? c) with true by lia.
  unfold ref_ws. repeat match goal with |- context [?a =? ?b] => replace (a =? b) with false by lia end. reflexivity.
Qed.

Theorem parse_frames_roundtrip : forall fs fuel,
  Forall (fun f => (N.of_nat (length (snd f)) < 4294967296)%N) fs ->
  (length (concat (map (fun f => frame (fst f) (snd f)) fs)) < fuel)%nat ->
  parse_frames fuel (concat (map (fun f => frame (fst f) (snd f)) fs)) = Some fs.
Proof.
  induction fs as [|[flag p] fs IH]; intros fuel H Hf.
  - destruct fuel; [cbn in Hf; lia|reflexivity].
  - inversion H as [|? ? Hp Hfs]; subst. destruct fuel as [|f]; [lia|].
    cbn [map concat fst snd] in *. rewrite app_length in Hf. unfold frame at 1 in Hf. cbn [length] in Hf.
    unfold frame at 1, be32. cbn [app parse_frames]. unfold un_be32. rewrite (be32_inv _ Hp), Nat2N.id.
    replace (Nat.ltb (length (p ++ _)) (length p)) with false by (rewrite app_length; lia).
    rewrite firstn_app_exact, skipn_app_exact, IH; auto. lia.
Qed.
