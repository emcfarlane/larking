(* Proofs about Model/Codec.v: every ReadNext call refines the pure parser of Spec/Frames.v
   for every schedule, EOF style and carry-over, and so does the receive loop; the parser inverts the
   writers; a length over the limit is refused and no call crashes.
   The statements in Properties/ are phrased with: [refines c limit L r], the result r of a call is the
   parser's answer on the logical stream L -- same message, rest and error; only an HttpBody chunk may
   come together with EOF; [json_rel], the same against the JSON scanner; [end_rel], a loop and the
   parser end alike, clean or with the same error; [fits c limit m], m is a message the writer emits and
   the parser gives back: within the limit, one complete JSON text, never for HttpBody. *)
From Larking Require Import Base.GoSem Base.Reader Base.Varint Spec.Frames Model.Codec.

Lemma fill_have fuel tr b s i : i < length b -> fill fuel tr b s i = FlOk b s.
Proof. intros H. apply Nat.ltb_lt in H. destruct fuel; cbn [fill]; now rewrite H. Qed.

(* The loop that waits for byte i, entered with i <= len(b): it returns with byte i present and b
   extended, or, when the stream has nothing more to give, with b as it was. *)
Lemma fill_spec : forall fuel tr b s i, length (rem s) < fuel -> i <= length b ->
  match fill fuel tr b s i with
  | FlOk b' s' => b' ++ rem s' = b ++ rem s /\ i < length b' /\ exists x, b' = b ++ x
  | FlErr e b' s' => b' = b /\ length b = i /\ rem s = [] /\ rem s' = [] /\
                     e = (if tr b then EUnexpectedEOF else EEOF)
  | FlPanic | FlFuel => False
  end.
Proof.
  induction fuel as [|f IH]; intros tr b s i Hf Hi; [lia|].
  destruct (Nat.ltb i (length b)) eqn:L.
  { apply Nat.ltb_lt in L. rewrite fill_have by exact L. repeat split; auto. exists []. now rewrite app_nil_r. }
  cbn [fill]. rewrite L. destruct (read_any s) as [[ch eof] s1] eqn:R.
  pose proof (read1_split _ _ _ _ _ R) as RS.
  assert (Hch : length (b ++ ch) <= i -> ch = []).
  { rewrite app_length. destruct ch; [reflexivity|cbn [length]; lia]. }
  destruct (eof && negb (Nat.ltb i (length (b ++ ch)))) eqn:C.
  - apply andb_true_iff in C as [-> C]. specialize (Hch ltac:(lia)). subst ch.
    apply read1_eof_rem in R. rewrite app_nil_r, <- RS, R. repeat split; auto; lia.
  - destruct eof.
    + rewrite fill_have by lia. rewrite <- RS, app_assoc. repeat split; [lia|now exists ch].
    + apply read_any_noeof_progress in R as Hne. rewrite <- RS, app_length in Hf.
      specialize (IH tr (b ++ ch) s1 i ltac:(destruct ch; [congruence|cbn [length] in Hf; lia])
                     ltac:(rewrite app_length; lia)).
      destruct (fill f tr (b ++ ch) s1 i) as [b' s'|e b' s'| |]; try contradiction.
      * destruct IH as (H1 & H2 & x & H3). rewrite H1, <- RS, app_assoc. repeat split; auto.
        exists (ch ++ x). now rewrite app_assoc.
      * destruct IH as (_ & Hl & _). rewrite Hch in Hne by lia. congruence.
Qed.

(* io.ReadFull: all [need] bytes, or, from a stream that has fewer, everything that was left *)
Lemma read_full_inv : forall fuel need acc s out ok s',
  read_full fuel need acc s = Some (out, ok, s') ->
  if ok then out = acc ++ firstn need (rem s) /\ rem s' = skipn need (rem s) /\ need <= length (rem s)
  else out = acc ++ rem s /\ rem s' = [] /\ length (rem s) < need.
Proof.
  induction fuel as [|f IH]; intros need acc s out ok s' H; destruct need as [|n]; cbn [read_full] in H;
    try discriminate; try (inversion H; subst; cbn; rewrite app_nil_r; repeat split; lia).
  destruct (read1 (S n) s) as [[ch e] s1] eqn:R.
  pose proof (read1_split _ _ _ _ _ R) as Hs. pose proof (read1_len _ _ _ _ _ R) as Hl.
  destruct ch as [|c ch'].
  - inversion H; subst. cbn [app] in Hs.
    destruct (rem s) as [|x r] eqn:E.
    + destruct (read1_nil_eof _ _ _ _ _ R E) as (_ & _ & ->). rewrite E, app_nil_r. repeat split; auto. cbn; lia.
    + exfalso. eapply (read1_progress (S n)); eauto; [lia|congruence].
  - apply IH in H. set (chn := c :: ch') in *. rewrite <- Hs, app_length.
    destruct ok; destruct H as (-> & H2 & H3); rewrite <- app_assoc; repeat split; auto; try lia.
    + now rewrite firstn_app, (firstn_all2 chn) by lia.
    + now rewrite skipn_app, (skipn_all2 chn) by lia.
Qed.

Lemma read_full_spec : forall fuel need acc s out ok s',
  read_full fuel need acc s = Some (out, ok, s') ->
  if ok then out = acc ++ firstn need (rem s) /\ rem s' = skipn need (rem s) /\ need <= length (rem s)
  else length (rem s) < need.
Proof. intros fuel need acc s out ok s' H. apply read_full_inv in H. destruct ok; [exact H|apply H]. Qed.

Lemma read_full_total : forall fuel need acc s, length (rem s) < fuel -> read_full fuel need acc s <> None.
Proof.
  induction fuel as [|f IH]; intros need acc s Hf; [lia|].
  destruct need as [|n]; cbn [read_full]; [discriminate|].
  destruct (read1 (S n) s) as [[ch e] s1] eqn:R.
  destruct ch as [|c ch']; [discriminate|].
  apply IH. apply read1_split in R. rewrite <- R, app_length in Hf. cbn [length] in Hf. lia.
Qed.

(* past the empty-stream test in front of the protobuf and HttpBody parsers *)
Lemma parse_proto_cons limit L : L <> [] ->
  parse_proto limit L =
  match consume_varint L with
  | VTrunc => FErr EUnexpectedEOF
  | VOverflow => FErr EVarint
  | VOk v n =>
    if (N.of_nat limit <? v)%N then FErr ETooLarge
    else if Nat.ltb (length (skipn n L)) (N.to_nat v) then FErr EUnexpectedEOF
         else FMsg (firstn (N.to_nat v) (skipn n L)) (skipn (N.to_nat v) (skipn n L))
  end.
Proof. destruct L; [congruence|reflexivity]. Qed.
Lemma parse_body_cons limit L : L <> [] -> parse_body limit L = FMsg (firstn limit L) (skipn limit L).
Proof. destruct L; [congruence|reflexivity]. Qed.

Lemma parse_nil c limit : 0 < limit -> parse c limit [] = FEnd.
Proof. intros H. destruct c; try reflexivity. cbn. unfold parse_json. destruct limit; [lia|reflexivity]. Qed.
(* only the JSON parser reports a clean end while bytes remain (those outside any object) *)
Lemma parse_end_nil c limit L : parse c limit L = FEnd -> c = CJSON \/ L = [].
Proof.
  destruct c, L as [|x L']; auto; cbn [parse]; [|discriminate].
  rewrite parse_proto_cons by discriminate.
  destruct (consume_varint _); try discriminate. destruct (_ <? _)%N; [discriminate|]. destruct (Nat.ltb _ _); discriminate.
Qed.
Lemma parse_body_noerr limit L e : parse_body limit L <> FErr e.
Proof. unfold parse_body. destruct L; discriminate. Qed.

Lemma json_scan_frame_bounds : forall k st l i n, json_scan k st l i = JFrame n ->
  i < n /\ n <= i + Nat.min k (length l).
Proof.
  induction k as [|k IH]; intros st l i n H; cbn [json_scan] in H; [discriminate|].
  destruct l as [|c l']; [discriminate|]. cbn [length].
  destruct (json_step st c); try discriminate.
  - apply IH in H. lia.
  - inversion H; subst. lia.
Qed.

Lemma parse_msg_inv c limit L m r : parse c limit L = FMsg m r ->
  length m <= limit /\ (0 < limit -> length r < length L).
Proof.
  intros H. destruct c; cbn [parse] in H.
  - destruct L as [|x L']; [discriminate|]. rewrite parse_proto_cons in H by discriminate.
    destruct (consume_varint (x :: L')) as [v n| |] eqn:CV; try discriminate.
    pose proof (cv_ok_len _ _ _ _ CV) as Hn.
    destruct (N.of_nat limit <? v)%N eqn:E; [discriminate|]. destruct (Nat.ltb _ _); [discriminate|].
    inversion H; subst. rewrite firstn_length, !skipn_length. cbn [length]. lia.
  - unfold parse_json in H. destruct (json_scan limit jst0 L 0) as [n|s| |] eqn:J; try discriminate.
    + inversion H; subst. apply json_scan_frame_bounds in J. rewrite firstn_length, skipn_length. lia.
    + destruct (Nat.eqb _ _); discriminate.
  - destruct L as [|x L']; [discriminate|]. inversion H; subst. rewrite firstn_length, skipn_length. cbn [length]. lia.
Qed.
Lemma parse_progress c limit L m r : 0 < limit -> parse c limit L = FMsg m r -> length r < length L.
Proof. intros Hl H. now apply (parse_msg_inv c limit L m r). Qed.

Definition refines (c : codec) (limit : nat) (L : bytes) (r : rres) : Prop :=
  match r with
  | RRet dst n None s' =>
      n <= length dst /\ parse c limit L = FMsg (firstn n dst) (skipn n dst ++ rem s') /\
      (c = CBody -> 0 < n)
  | RRet dst n (Some EEOF) s' =>
      (n = 0 /\ parse c limit L = FEnd /\ dst ++ rem s' = L) \/
      (c = CBody /\ 0 < n /\ n <= length dst /\ parse c limit L = FMsg (firstn n dst) [] /\ skipn n dst ++ rem s' = [])
  | RRet dst n (Some e) s' => n = 0 /\ parse c limit L = FErr e
  | RPanic | RFuel => False
  end.

Lemma refines_inv c limit L dst n e s' : refines c limit L (RRet dst n e s') ->
  match parse c limit L with
  | FMsg m r => n <= length dst /\ m = firstn n dst /\ r = skipn n dst ++ rem s' /\ (c = CBody -> 0 < n) /\
                (e = None \/ e = Some EEOF /\ c = CBody /\ r = [])
  | FEnd => e = Some EEOF /\ n = 0 /\ dst ++ rem s' = L
  | FErr e' => e = Some e' /\ e' <> EEOF /\ n = 0
  end.
Proof.
  unfold refines. destruct e as [e|].
  2: { intros (Hn & -> & Hb). auto 6. }
  destruct e; try (intros [-> ->]; repeat split; discriminate).
  intros [(-> & -> & Hd) | (-> & Hn & Hl & -> & Hr)]; [auto|].
  rewrite Hr. repeat split; auto.
Qed.

Lemma refines_len c limit L dst n e s' : refines c limit L (RRet dst n e s') -> n <= length dst.
Proof.
  intros R. apply refines_inv in R. destruct (parse c limit L); [apply R|..]; destruct R as (_ & ? & ?); lia.
Qed.

Lemma refines_err c limit L r e : refines c limit L r -> parse c limit L = FErr e ->
  exists dst s', r = RRet dst 0 (Some e) s'.
Proof.
  intros R P. destruct r as [dst n e' s'| |]; try contradiction.
  apply refines_inv in R. rewrite P in R. destruct R as (-> & _ & ->). eauto.
Qed.

(* the Prop and the executable predicate evaluated on the implementation agree *)
Lemma refines_obs_ok c limit L dst n e s' :
  refines c limit L (RRet dst n e s') -> obs_ok c limit L (rem s') (RObs dst (Z.of_nat n) e) = true.
Proof.
  intros R. apply refines_inv in R. unfold obs_ok. cbn [o_n o_dst o_err]. rewrite Nat2Z.id.
  replace (Z.of_nat n <? 0)%Z with false by lia. cbn [orb].
  destruct (parse c limit L) as [m r| |e'] eqn:P.
  - destruct R as (Hn & -> & -> & Hb & He). replace (_ <? _)%Z with false by lia.
    rewrite !bytes_eqb_refl. destruct He as [-> | (-> & -> & ->)].
    + destruct c; try reflexivity. specialize (Hb eq_refl). destruct n; [lia|reflexivity].
    + specialize (Hb eq_refl). destruct n; [lia|reflexivity].
  - destruct R as (-> & -> & Hd). cbn [skipn app] in *. rewrite Hd, bytes_eqb_refl.
    replace (_ <? _)%Z with false by lia. destruct c; reflexivity.
  - destruct R as (-> & Hne & ->). replace (_ <? _)%Z with false by lia.
    destruct c; [| |now apply parse_body_noerr in P]; destruct e'; try congruence; reflexivity.
Qed.

Lemma firstn_S_nth {A} (l : list A) i x : nth_error l i = Some x -> firstn (S i) l = firstn i l ++ [x].
Proof.
  revert i. induction l as [|a l IH]; intros [|i] H; cbn in *; try discriminate.
  - now inversion H.
  - now rewrite (IH _ H).
Qed.

Lemma scan_varint_spec : forall k i b s,
  i <= length b -> Forall (fun y => (128 <= y)%N) (firstn i b) -> i + k = 10 ->
  match scan_varint k i b s with
  | FlOk b1 s1 => b1 ++ rem s1 = b ++ rem s /\
                  (10 <= length b1 \/ Exists (fun y => (y <? 128)%N = true) b1)
  | FlErr e b1 s1 => b1 ++ rem s1 = b ++ rem s /\ rem s1 = [] /\ Forall (fun y => (128 <= y)%N) b1 /\
                     length b1 < 10 /\ e = (if nonempty b1 then EUnexpectedEOF else EEOF)
  | FlPanic | FlFuel => False
  end.
Proof.
  induction k as [|k IH]; intros i b s Hi Hf Hk; cbn [scan_varint].
  - split; [reflexivity|left; lia].
  - pose proof (fill_spec (fill_fuel s) nonempty b s i (Nat.lt_succ_diag_r _) Hi) as F.
    destruct (fill (fill_fuel s) nonempty b s i) as [b' s'|e b' s'| |]; try contradiction.
    + destruct F as (F1 & F2 & x & F3).
      destruct (nth_error b' i) as [y|] eqn:N; [|apply nth_error_None in N; lia].
      destruct (y <? 128)%N eqn:Y.
      * split; [exact F1|]. right. apply Exists_exists. exists y. split; [eapply nth_error_In; eauto|exact Y].
      * specialize (IH (S i) b' s'). rewrite F1 in IH. apply IH; [lia| |lia].
        rewrite (firstn_S_nth _ _ _ N). apply Forall_app. split.
        -- subst b'. rewrite firstn_app_le by lia. exact Hf.
        -- constructor; [cbn beta; lia|constructor].
    + destruct F as (-> & <- & F2 & F3 & ->). rewrite firstn_all in Hf. rewrite F2, F3. repeat split; auto. lia.
Qed.

Theorem proto_next_refines b s limit : 0 < limit -> (N.of_nat limit < 2 ^ 63)%N ->
  refines CProto limit (b ++ rem s) (proto_next b s limit).
Proof.
  intros Hlim Hint. unfold proto_next.
  pose proof (scan_varint_spec 10 0 b s) as S. cbn [firstn] in S.
  specialize (S ltac:(lia) ltac:(constructor) eq_refl).
  destruct (scan_varint 10 0 b s) as [b1 s1|e b1 s1| |]; try contradiction.
  - destruct S as [SL SD]. rewrite <- SL. clear SL.
    assert (Hnt : consume_varint b1 <> VTrunc) by (apply cv_decided; exact SD).
    assert (Hne : b1 ++ rem s1 <> []) by (destruct b1; [now destruct Hnt|discriminate]).
    unfold refines, parse. rewrite (parse_proto_cons _ _ Hne). unfold consume_varint in *.
    rewrite (cv_prefix _ _ (rem s1) Hnt).
    destruct (cv 10 b1) as [v nv| |] eqn:CV; [|congruence|auto].
    pose proof (cv_ok_len _ _ _ _ CV) as Hnv.
    destruct ((2 ^ 63 <=? v)%N || (Nat.ltb 0 limit && (N.of_nat limit <? v)%N)) eqn:TL.
    + replace (N.of_nat limit <? v)%N with true by lia. auto.
    + replace (N.of_nat limit <? v)%N with false by lia.
      rewrite slice_from_ok, skipn_app_le by lia. set (b2 := skipn nv b1). set (n := N.to_nat v).
      destruct (Nat.ltb (length b2) n) eqn:LT.
      * pose proof (read_full_total (S (length (rem s1))) (n - length b2) [] s1 ltac:(lia)) as RT.
        destruct (read_full (S (length (rem s1))) (n - length b2) [] s1) as [[[more ok] s2]|] eqn:RF; [|congruence].
        apply read_full_spec in RF. destruct ok.
        -- destruct RF as (-> & R2 & R3). cbn [app].
           set (dst := b2 ++ firstn (n - length b2) (rem s1)).
           replace (b2 ++ rem s1) with (dst ++ rem s2) by (unfold dst; now rewrite R2, <- app_assoc, firstn_skipn).
           assert (n <= length dst) by (unfold dst; rewrite app_length, firstn_length; lia).
           replace (Nat.ltb (length (dst ++ rem s2)) n) with false by (rewrite app_length; lia).
           rewrite firstn_app_le, skipn_app_le by lia. repeat split; try discriminate. lia.
        -- replace (Nat.ltb (length (b2 ++ rem s1)) n) with true by (rewrite app_length; lia). auto.
      * replace (Nat.ltb (length (b2 ++ rem s1)) n) with false by (rewrite app_length; lia).
        rewrite firstn_app_le, skipn_app_le by lia. repeat split; try discriminate. lia.
  - destruct S as (SL & SR & SF & SLen & ->). rewrite <- SL, SR, app_nil_r.
    unfold refines, parse. destruct b1 as [|y r]; cbn [nonempty is_nil negb]; [left; auto|].
    rewrite parse_proto_cons by discriminate. unfold consume_varint. rewrite cv_all_cont by (auto; lia). auto.
Qed.

Definition json_rel (L : bytes) (r : rres) (j : jres) : Prop :=
  match j, r with
  | JFrame n', RRet dst n None s' => n = n' /\ dst ++ rem s' = L /\ n <= length dst
  | JEnd st', RRet dst n (Some e) s' =>
      n = 0 /\ dst ++ rem s' = L /\ e = (if Nat.ltb 0 (depth st') then EUnexpectedEOF else EEOF)
  | JTooLarge, RRet dst n (Some e) s' => n = 0 /\ e = ETooLarge
  | JErr, RRet dst n (Some e) s' => n = 0 /\ e = EUnbalanced
  | _, _ => False
  end.

Lemma skipn_nth {A} (l : list A) i c : nth_error l i = Some c -> skipn i l = c :: skipn (S i) l.
Proof.
  revert i. induction l as [|a l IH]; intros [|i] H; cbn in *; try discriminate.
  - now inversion H.
  - now apply IH.
Qed.

Lemma json_loop_spec : forall k i st b s,
  i <= length b -> json_rel (b ++ rem s) (json_loop k i st b s) (json_scan k st (skipn i (b ++ rem s)) i).
Proof.
  induction k as [|k IH]; intros i st b s Hi; cbn [json_loop json_scan].
  - cbn. auto.
  - pose proof (fill_spec (fill_fuel s) (fun _ => Nat.ltb 0 (depth st)) b s i (Nat.lt_succ_diag_r _) Hi) as F.
    destruct (fill (fill_fuel s) (fun _ => Nat.ltb 0 (depth st)) b s i) as [b' s'|e b' s'| |]; try contradiction.
    + destruct F as (F1 & F2 & _). rewrite <- F1.
      destruct (nth_error b' i) as [c|] eqn:N; [|apply nth_error_None in N; lia].
      assert (NL : nth_error (b' ++ rem s') i = Some c) by (rewrite nth_error_app1; auto).
      rewrite (skipn_nth _ _ _ NL).
      destruct (json_step st c) as [st'| |].
      * apply IH. lia.
      * cbn. repeat split; lia.
      * cbn. auto.
    + destruct F as (-> & <- & RS & F2 & ->). rewrite RS, app_nil_r, skipn_all. cbn. rewrite F2, app_nil_r. auto.
Qed.

Theorem json_next_refines b s limit : refines CJSON limit (b ++ rem s) (json_next b s limit).
Proof.
  unfold json_next. pose proof (json_loop_spec limit 0 jst0 b s ltac:(lia)) as H. cbn [skipn] in H.
  unfold refines, parse, parse_json. set (L := b ++ rem s) in *.
  destruct (json_scan limit jst0 L 0) as [n'|st'| |]; destruct (json_loop limit 0 jst0 b s) as [dst n [e|] s'| |];
    cbn [json_rel] in H; try contradiction.
  - destruct H as (-> & HL & Hn). repeat split; try discriminate; [exact Hn|].
    rewrite <- HL, firstn_app_le, skipn_app_le by lia. reflexivity.
  - destruct H as (-> & HL & ->). destruct (Nat.ltb 0 (depth st')) eqn:D.
    + replace (Nat.eqb (depth st') 0) with false by lia. auto.
    + replace (Nat.eqb (depth st') 0) with true by lia. auto.
  - destruct H as (-> & ->). auto.
  - destruct H as (-> & ->). auto.
Qed.

Lemma body_loop_refines : forall fuel b s limit, 0 < limit -> length (rem s) < fuel ->
  refines CBody limit (b ++ rem s) (body_loop fuel b s limit).
Proof.
  induction fuel as [|f IH]; intros b s limit Hl Hf; [lia|]. cbn [body_loop].
  replace (Nat.ltb 0 limit) with true by lia. cbn [andb].
  destruct (Nat.leb limit (length b)) eqn:LB.
  - unfold refines, parse. rewrite parse_body_cons by (destruct b; [cbn in LB; lia|discriminate]).
    rewrite firstn_app_le, skipn_app_le by lia. repeat split; lia.
  - destruct (read_any s) as [[ch eof] s'] eqn:R.
    pose proof (read1_split _ _ _ _ _ R) as RS. rewrite <- RS, app_assoc.
    destruct eof.
    + pose proof (read1_eof_rem _ _ _ _ R) as RE. rewrite RE, app_nil_r.
      destruct (Nat.ltb limit (length (b ++ ch))) eqn:LT; unfold refines, parse; rewrite RE, app_nil_r.
      * rewrite parse_body_cons by (destruct (b ++ ch); [cbn in LT; lia|discriminate]). repeat split; lia.
      * destruct (b ++ ch) as [|y r] eqn:E; [left; auto|]. right. rewrite <- E in *.
        rewrite parse_body_cons by (rewrite E; discriminate).
        assert (0 < length (b ++ ch)) by (rewrite E; cbn [length]; lia).
        rewrite firstn_all, firstn_all2, skipn_all2, skipn_all by lia. repeat split; lia.
    + apply IH; [lia|]. pose proof (read_any_len _ _ _ _ R).
      apply read_any_noeof_progress in R. destruct ch; [congruence|]. cbn [length] in *. lia.
Qed.

Theorem body_next_refines b s limit : 0 < limit -> refines CBody limit (b ++ rem s) (body_next b s limit).
Proof. intros H. apply body_loop_refines; [exact H|unfold fill_fuel; lia]. Qed.

Theorem read_next_refines c b s limit : 0 < limit -> (N.of_nat limit < 2 ^ 63)%N ->
  refines c limit (b ++ rem s) (read_next c b s limit).
Proof.
  intros H1 H2. destruct c; cbn [read_next].
  - now apply proto_next_refines.
  - apply json_next_refines.
  - now apply body_next_refines.
Qed.

Definition end_rel (e : rend) (p : send) : Prop :=
  match e, p with EndClean, SClean => True | EndErr a, SErr b => a = b | _, _ => False end.

Lemma end_rel_clean e : end_rel e SClean -> e = EndClean.
Proof. destruct e; cbn; intros H; now try contradiction. Qed.
Lemma end_rel_err e a : end_rel e (SErr a) -> e = EndErr a.
Proof. destruct e; cbn; intros H; now subst || contradiction. Qed.

Theorem recv_all_parse_all : forall fuel c limit carry s,
  0 < limit -> (N.of_nat limit < 2 ^ 63)%N -> length (carry ++ rem s) < fuel ->
  fst (recv_all fuel c limit carry s) = fst (parse_all fuel c limit (carry ++ rem s)) /\
  end_rel (snd (recv_all fuel c limit carry s)) (snd (parse_all fuel c limit (carry ++ rem s))).
Proof.
  induction fuel as [|f IH]; intros c limit carry s Hl Hi Hf; [lia|].
  cbn [recv_all parse_all].
  pose proof (read_next_refines c carry s limit Hl Hi) as R.
  destruct (read_next c carry s limit) as [dst n e s'| |]; try contradiction.
  apply refines_inv in R. destruct (parse c limit (carry ++ rem s)) as [m r| |e'] eqn:P.
  - destruct R as (Hn & -> & -> & Hb & He). pose proof (parse_progress _ _ _ _ _ Hl P) as Hprog.
    destruct He as [-> | (-> & -> & Hr)].
    + specialize (IH c limit (skipn n dst) s' Hl Hi ltac:(lia)).
      destruct (recv_all f c limit (skipn n dst) s') as [ms e].
      destruct (parse_all f c limit (skipn n dst ++ rem s')) as [ms' e'].
      cbn [fst snd] in *. destruct IH as [-> IH2]. auto.
    + (* the last chunk of an upload, returned together with EOF *)
      rewrite Hr. apply app_eq_nil in Hr. destruct Hr as [-> _].
      specialize (Hb eq_refl). destruct n as [|n']; [lia|]. destruct f as [|f']; [lia|]. cbn. auto.
  - destruct R as (-> & -> & Hd). cbn [fst snd]. split; [reflexivity|].
    destruct (parse_end_nil _ _ _ P) as [-> | E]; [exact I|].
    rewrite <- Hd in E. apply app_eq_nil in E. destruct E as [-> _]. now destruct c.
  - destruct R as (-> & Hne & ->). destruct e'; try congruence; cbn; auto.
Qed.

(* behind the written length n of a message within the limit, the next n bytes are the message *)
Lemma parse_proto_header limit n X : n <= limit -> (N.of_nat limit < 2 ^ 63)%N ->
  parse_proto limit (encode_varint (N.of_nat n) ++ X) =
  if Nat.ltb (length X) n then FErr EUnexpectedEOF else FMsg (firstn n X) (skipn n X).
Proof.
  intros Hn Hl. set (v := N.of_nat n). pose proof (encode_varint_len v) as Hlen.
  rewrite parse_proto_cons by (destruct (encode_varint v); [cbn in Hlen; lia|discriminate]).
  rewrite consume_encode by (unfold v; lia). replace (N.of_nat limit <? v)%N with false by (unfold v; lia).
  rewrite skipn_app_exact. unfold v. now rewrite Nat2N.id.
Qed.

Lemma parse_proto_write limit m R : length m <= limit -> (N.of_nat limit < 2 ^ 63)%N ->
  parse_proto limit (write_proto m ++ R) = FMsg m R.
Proof.
  intros Hm Hl. unfold write_proto. rewrite <- app_assoc, parse_proto_header by assumption.
  replace (Nat.ltb (length (m ++ R)) (length m)) with false by (rewrite app_length; lia).
  now rewrite firstn_app_exact, skipn_app_exact.
Qed.

Lemma json_scan_prefix : forall k st m i n R, json_scan k st m i = JFrame n -> json_scan k st (m ++ R) i = JFrame n.
Proof.
  induction k as [|k IH]; intros st m i n R H; cbn [json_scan] in *; [discriminate|].
  destruct m as [|c m']; [discriminate|]. cbn [app].
  destruct (json_step st c); try discriminate; auto.
Qed.

(* a JSON message, for framing purposes: the brace automaton accepts exactly the whole text *)
Definition json_msg (limit : nat) (m : bytes) : Prop := json_scan limit jst0 m 0 = JFrame (length m).

Lemma parse_json_write limit m R : json_msg limit m -> parse_json limit (write_json m ++ R) = FMsg m R.
Proof.
  unfold json_msg, parse_json, write_json. intros H. rewrite (json_scan_prefix _ _ _ _ _ R H).
  now rewrite firstn_app_exact, skipn_app_exact.
Qed.

Definition fits (c : codec) (limit : nat) (m : bytes) : Prop :=
  match c with CProto => length m <= limit | CJSON => json_msg limit m | CBody => False end.

Lemma parse_write c limit m R : fits c limit m -> (N.of_nat limit < 2 ^ 63)%N ->
  parse c limit (write_next c m ++ R) = FMsg m R.
Proof.
  destruct c; cbn [fits parse write_next]; intros H Hl.
  - now apply parse_proto_write.
  - now apply parse_json_write.
  - contradiction.
Qed.

(* a loop that takes messages off the front of a stream: on a written sequence followed by a rest R
   at which the loop stops with e, it gives the sequence and e *)
Lemma loop_written {M} (loop : nat -> bytes -> list M * send) (w : M -> bytes) : forall msgs fuel R e,
  Forall (fun m => forall f R, loop (S f) (w m ++ R) = (let '(ms, e) := loop f R in (m :: ms, e)) /\
                               length R < length (w m ++ R)) msgs ->
  (forall f, loop (S f) R = ([], e)) -> length (concat (map w msgs) ++ R) < fuel ->
  loop fuel (concat (map w msgs) ++ R) = (msgs, e).
Proof.
  induction msgs as [|m ms IH]; intros fuel R e Hw HR Hf; (destruct fuel as [|f]; [lia|]); cbn [map concat app] in *.
  - apply HR.
  - inversion Hw as [|? ? Hm Hms]; subst. rewrite <- app_assoc in *. destruct (Hm f (concat (map w ms) ++ R)) as [-> Hp].
    now rewrite (IH f R e Hms HR) by lia.
Qed.

Lemma parse_all_written msgs fuel c limit R e :
  0 < limit -> (N.of_nat limit < 2 ^ 63)%N -> Forall (fits c limit) msgs ->
  (forall f, parse_all (S f) c limit R = ([], e)) -> length (concat (map (write_next c) msgs) ++ R) < fuel ->
  parse_all fuel c limit (concat (map (write_next c) msgs) ++ R) = (msgs, e).
Proof.
  intros Hl Hi Hf. apply (loop_written (fun f => parse_all f c limit)). revert Hf. apply Forall_impl. intros m Hm f R'.
  pose proof (parse_write c limit m R' Hm Hi) as P. cbn [parse_all]. rewrite P.
  split; [reflexivity|exact (parse_progress _ _ _ _ _ Hl P)].
Qed.

Theorem parse_all_roundtrip : forall msgs fuel c limit,
  0 < limit -> (N.of_nat limit < 2 ^ 63)%N -> Forall (fits c limit) msgs ->
  length (concat (map (write_next c) msgs)) < fuel ->
  parse_all fuel c limit (concat (map (write_next c) msgs)) = (msgs, SClean).
Proof.
  intros msgs fuel c limit Hl Hi Hf Hfuel. rewrite <- (app_nil_r (concat _)) in *.
  apply parse_all_written; auto. intros f. cbn [parse_all]. now rewrite parse_nil.
Qed.

(* HttpBody: the chunks are the stream cut every [limit] bytes: nothing lost, nothing added *)
Theorem parse_all_body : forall fuel limit L, 0 < limit -> length L < fuel ->
  snd (parse_all fuel CBody limit L) = SClean /\ concat (fst (parse_all fuel CBody limit L)) = L /\
  Forall (fun m => 0 < length m <= limit) (fst (parse_all fuel CBody limit L)).
Proof.
  induction fuel as [|f IH]; intros limit L Hl Hf; [lia|]. cbn [parse_all parse].
  destruct L as [|x L']; [cbn; auto|]. rewrite parse_body_cons by discriminate.
  set (L := x :: L') in *. assert (0 < length L) by (cbn; lia).
  specialize (IH limit (skipn limit L) Hl ltac:(rewrite skipn_length; lia)).
  destruct (parse_all f CBody limit (skipn limit L)) as [ms e]. cbn [fst snd] in *.
  destruct IH as (I1 & I2 & I3). repeat split; auto.
  - cbn [concat]. rewrite I2. apply firstn_skipn.
  - constructor; [|exact I3]. rewrite firstn_length. lia.
Qed.

Theorem recv_all_roundtrip c msgs limit sch e :
  0 < limit -> (N.of_nat limit < 2 ^ 63)%N -> Forall (fits c limit) msgs ->
  let L := concat (map (write_next c) msgs) in
  recv_all (S (length L)) c limit [] (Src L sch e) = (msgs, EndClean).
Proof.
  intros Hl Hi Hf L.
  destruct (recv_all_parse_all (S (length L)) c limit [] (Src L sch e) Hl Hi ltac:(cbn; lia)) as [H1 H2].
  cbn [rem app] in H1, H2. unfold L in *. rewrite parse_all_roundtrip in H1, H2 by (auto; lia).
  rewrite (surjective_pairing (recv_all _ _ _ _ _)), H1, (end_rel_clean _ H2). reflexivity.
Qed.

Theorem recv_all_body limit L sch e : 0 < limit -> (N.of_nat limit < 2 ^ 63)%N ->
  let r := recv_all (S (length L)) CBody limit [] (Src L sch e) in
  snd r = EndClean /\ concat (fst r) = L /\ Forall (fun m => 0 < length m <= limit) (fst r).
Proof.
  intros Hl Hi. cbv zeta.
  destruct (recv_all_parse_all (S (length L)) CBody limit [] (Src L sch e) Hl Hi ltac:(cbn; lia)) as [H1 H2].
  cbn [rem app] in H1, H2.
  destruct (parse_all_body (S (length L)) limit L Hl ltac:(lia)) as (P1 & P2 & P3).
  rewrite P1 in H2. rewrite H1. auto using end_rel_clean.
Qed.

(* any length prefix that decodes to more than the limit -- including values of 2^63 and above
   and over-long encodings -- is refused as too large *)
Theorem proto_limit_safe b s limit v n :
  0 < limit -> (N.of_nat limit < 2 ^ 63)%N ->
  consume_varint (b ++ rem s) = VOk v n -> (N.of_nat limit < v)%N ->
  exists dst s', proto_next b s limit = RRet dst 0 (Some ETooLarge) s'.
Proof.
  intros Hl Hi CV Hv. apply (refines_err CProto limit (b ++ rem s)); [now apply proto_next_refines|].
  cbn [parse]. rewrite parse_proto_cons, CV by (intros E; now rewrite E in CV).
  now replace (N.of_nat limit <? v)%N with true by lia.
Qed.

(* never a crash, never a reported length outside the returned buffer *)
Theorem read_next_safe c b s limit : 0 < limit -> (N.of_nat limit < 2 ^ 63)%N ->
  match read_next c b s limit with RRet dst n _ _ => n <= length dst | RPanic | RFuel => False end.
Proof.
  intros Hl Hi. pose proof (read_next_refines c b s limit Hl Hi) as R.
  destruct (read_next c b s limit) as [dst n e s'| |]; [exact (refines_len _ _ _ _ _ _ _ R)|contradiction..].
Qed.
