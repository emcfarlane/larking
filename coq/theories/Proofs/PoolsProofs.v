(* Exclusive ownership of pooled objects for all interleavings of well-bracketed scripts
   (Model/Pools.v); the pooled gzip readers (gstep): a request sees and changes its own wrapper only. *)
From Larking Require Import Base.GoSem Model.Pools.

Lemma upd_same {A} (f : nat -> A) k a : upd f k a k = a.
Proof. unfold upd. now rewrite Nat.eqb_refl. Qed.

Lemma upd_other {A} (f : nat -> A) k a x : x <> k -> upd f k a x = f x.
Proof. intro H. unfold upd. apply Nat.eqb_neq in H. now rewrite H. Qed.

Lemma pb_eqb_eq x y : pb_eqb x y = true <-> x = y.
Proof.
  destruct x as [a b], y as [c d]. unfold pb_eqb. cbn [fst snd].
  rewrite andb_true_iff, !Nat.eqb_eq. split.
  - intros [-> ->]. reflexivity.
  - intro H. inversion H. auto.
Qed.

Lemma mem_In x l : mem x l = true <-> In x l.
Proof.
  induction l as [|y l IH]; cbn [mem In].
  - split; [discriminate | tauto].
  - rewrite orb_true_iff, pb_eqb_eq, IH. split; intros [H|H]; auto.
Qed.

Lemma remove_one_In x y l : In y (remove_one x l) -> In y l.
Proof.
  induction l as [|z l IH]; cbn [remove_one]; [tauto|].
  destruct (pb_eqb x z); cbn [In]; intuition.
Qed.

Lemma remove_one_other x y l : y <> x -> In y l -> In y (remove_one x l).
Proof.
  intros Hne. induction l as [|z l IH]; cbn [remove_one In]; [tauto|].
  destruct (pb_eqb x z) eqn:E.
  - apply pb_eqb_eq in E. subst z. intros [H|H]; [congruence | exact H].
  - cbn [In]. intuition.
Qed.

Lemma remove_one_snd_sub x b l : In b (map snd (remove_one x l)) -> In b (map snd l).
Proof.
  rewrite !in_map_iff. intros [y [H1 H2]]. exists y. split; [exact H1 | eapply remove_one_In; eassumption].
Qed.

Lemma remove_one_snd_NoDup x l : NoDup (map snd l) -> NoDup (map snd (remove_one x l)).
Proof.
  induction l as [|z l IH]; cbn [remove_one map]; [auto|].
  intro H. inversion H as [|? ? Hn Hd]; subst.
  destruct (pb_eqb x z); [exact Hd|].
  cbn [map]. constructor; [|auto].
  intro Hin. apply Hn. eapply remove_one_snd_sub; eassumption.
Qed.

Lemma remove_one_snd_notin x l : NoDup (map snd l) -> In x l -> ~ In (snd x) (map snd (remove_one x l)).
Proof.
  induction l as [|z l IH]; cbn [remove_one map In]; [tauto|].
  intros H Hin. inversion H as [|? ? Hn Hd]; subst.
  destruct (pb_eqb x z) eqn:E.
  - apply pb_eqb_eq in E. subst z. exact Hn.
  - destruct Hin as [Hin|Hin]; [subst z; rewrite (proj2 (pb_eqb_eq x x) eq_refl) in E; discriminate|].
    cbn [map In]. intros [H1|H1].
    + apply Hn. rewrite H1. apply in_map. exact Hin.
    + exact (IH Hd Hin H1).
Qed.

Lemma snd_unique (l : list (nat * nat)) a a' b :
  NoDup (map snd l) -> In (a, b) l -> In (a', b) l -> a = a'.
Proof. intros H H1 H2. now injection (NoDup_map_inj snd l _ _ H H1 H2 eq_refl). Qed.

Lemma in_snd (l : list (nat * nat)) a b : In (a, b) l -> In b (map snd l).
Proof. exact (in_map snd l (a, b)). Qed.

(* exclusivity of a pair of lists; [exclusive st] is [excl (refs st) (pools st)].  It is symmetric, and
   moving an object from one list to the other keeps it: Get of a pooled object and Put are
   that move in the two directions *)
Definition excl (rf pl : list (nat * nat)) : Prop :=
  NoDup (map snd rf) /\ (forall p b, In (p, b) pl -> ~ In b (map snd rf)) /\ NoDup (map snd pl).

Lemma excl_sym rf pl : excl rf pl -> excl pl rf.
Proof.
  intros (A & B & C). repeat split; auto. intros a b Hin Hx.
  apply in_map_iff in Hx. destruct Hx as [[p b'] [E Hx]]. cbn [snd] in E. subst b'.
  apply (B p b Hx). eapply in_snd; eauto.
Qed.

Lemma excl_new rf pl a b : excl rf pl -> ~ In b (map snd rf) -> ~ In b (map snd pl) -> excl ((a, b) :: rf) pl.
Proof.
  intros (A & B & C) Hr Hp. repeat split; cbn [map snd]; [constructor; assumption | | exact C].
  intros p' b' Hin [<-|Hin2]; [exact (Hp (in_snd _ _ _ Hin)) | exact (B p' b' Hin Hin2)].
Qed.

Lemma excl_move rf pl a x : excl rf pl -> In x pl -> excl ((a, snd x) :: rf) (remove_one x pl).
Proof.
  intros (A & B & C) Hin. apply excl_new.
  - repeat split; [exact A | | now apply remove_one_snd_NoDup]. intros p' b' Hin'. apply remove_one_In in Hin'. eauto.
  - destruct x as [p b]. eapply B; eauto.
  - exact (remove_one_snd_notin x _ C Hin).
Qed.

Lemma move_sub (rf pl : list (nat * nat)) a x b :
  In x pl -> In b (map snd ((a, snd x) :: rf)) \/ In b (map snd (remove_one x pl)) ->
  In b (map snd rf) \/ In b (map snd pl).
Proof.
  cbn [map snd In]. intros Hin [[<-|H]|H]; [right; now apply in_map | now left | right; eapply remove_one_snd_sub; eauto].
Qed.

Definition live (s : astate) (t : nat) : Prop := stat s t <> Dead.

Lemma clean_live s t q : stat s t = Clean q -> live s t.
Proof. unfold live. intros ->. discriminate. Qed.

(* request r, at symbolic state s of the checker, with its tokens realised by the objects m *)
Record rinv (st : state) (r : rid) (s : astate) (m : nat -> bufid) : Prop := mkRinv {
  ri_env : forall v, env st r v = option_map m (vars s v);
  ri_vlt : forall v t, vars s v = Some t -> t < nxt s;
  ri_ref : forall t, live s t -> In (r, m t) (refs st);
  ri_inj : forall t t', live s t -> live s t' -> m t = m t' -> t = t';
  ri_cln : forall t p, stat s t = Clean p -> forall x, In x (cont st (m t)) -> x = r }.

Record Inv (st : state) : Prop := mkInv {
  i_excl : exclusive st;
  i_used : forall b, In b (map snd (refs st)) \/ In b (map snd (pools st)) -> b < next st;
  i_req : forall r, exists s m, wb_run s (rest st r) = true /\ rinv st r s m }.

Lemma rinv_frame st st' r s m :
  rinv st r s m -> env st' r = env st r ->
  (forall b, In (r, b) (refs st) -> In (r, b) (refs st') /\ cont st' b = cont st b) ->
  rinv st' r s m.
Proof.
  intros [H1 H2 H4 H5 H6] He Hf. constructor; auto.
  - intro v. now rewrite He.
  - intros t Ht. now apply Hf, H4.
  - intros t p Ht x. rewrite (proj2 (Hf _ (H4 t (clean_live _ _ _ Ht)))). eauto.
Qed.

Lemma init_inv scripts : (forall r, well_bracketed (scripts r) = true) -> Inv (init scripts).
Proof.
  intro H. constructor.
  - unfold exclusive, init; cbn. repeat split; try constructor. intros ? ? [].
  - cbn. intros b [[]|[]].
  - intro r. exists a_init, (fun _ => 0). split; [apply H|].
    constructor; cbn; try easy; unfold live; cbn; intros; exfalso; auto.
Qed.

Lemma live_dec s t : {live s t} + {stat s t = Dead}.
Proof. unfold live. destruct (stat s t); [right; reflexivity | left; discriminate | left; discriminate]. Qed.

Lemma rinv_held st r s m v t :
  rinv st r s m -> vars s v = Some t -> live s t -> env st r v = Some (m t) /\ In (r, m t) (refs st).
Proof. intros Hr Ev Hl. split; [rewrite (ri_env _ _ _ _ Hr), Ev; reflexivity | now apply (ri_ref _ _ _ _ Hr)]. Qed.

Lemma access_held st r e b rd :
  In (r, b) (refs st) -> (forall x, In x rd -> x = r) -> access_ok (mkL r e (Some b) (mem (r, b) (refs st)) rd).
Proof. intros Hin Hrd. split; [now apply mem_In | exact Hrd]. Qed.

Lemma wb_step_inv s e s' : wb_step s e = Some s' ->
  match e with
  | Get p v => s' = mkA (upd (vars s) v (Some (nxt s))) (upd (stat s) (nxt s) (Dirty p)) (S (nxt s))
  | Put p v => exists t, vars s v = Some t /\ live s t /\ s' = mkA (vars s) (upd (stat s) t Dead) (nxt s)
  | Reset v => exists t q, vars s v = Some t /\ live s t /\ s' = mkA (vars s) (upd (stat s) t (Clean q)) (nxt s)
  | Write v | Read v => exists t q, vars s v = Some t /\ stat s t = Clean q /\ s' = s
  | Alias v w => exists t, vars s v = Some t /\ live s t /\ s' = mkA (upd (vars s) w (Some t)) (stat s) (nxt s)
  | CopyOut v w => exists t q, vars s v = Some t /\ stat s t = Clean q /\ s' = mkA (upd (vars s) w None) (stat s) (nxt s)
  | Retain v => vars s v = None /\ s' = s
  | Escape _ => False
  end.
Proof.
  unfold live. destruct e as [p v|p v|v|v|v|v w|v w|v|v]; cbn [wb_step];
    [intros [= <-]; reflexivity | .. | discriminate];
    (destruct (vars s v) as [t|]; [destruct (stat s t) as [|q|q] eqn:Est|]); try discriminate;
    try (destruct (Nat.eqb p q); [|discriminate]); intros [= <-]; repeat eexists; first [exact Est | rewrite Est; discriminate].
Qed.

(* request r moved: it re-establishes its own invariant, the others are untouched *)
Lemma Inv_step st st' r sc s m :
  Inv st -> exclusive st' ->
  (forall b, In b (map snd (refs st')) \/ In b (map snd (pools st')) -> b < next st') ->
  rest st' = upd (rest st) r sc -> wb_run s sc = true -> rinv st' r s m ->
  (forall r', r' <> r -> env st' r' = env st r') ->
  (forall r' b, r' <> r -> In (r', b) (refs st) -> In (r', b) (refs st') /\ cont st' b = cont st b) ->
  Inv st'.
Proof.
  intros HI He Hu Hrest Hrun Hr Henv Hoth. constructor; [exact He | exact Hu |].
  intro r'. rewrite Hrest. destruct (Nat.eq_dec r' r) as [->|Hne].
  - exists s, m. now rewrite upd_same.
  - destruct (i_req _ HI r') as (s0 & m0 & Hrun0 & Hr0). exists s0, m0.
    rewrite upd_other by exact Hne. split; [exact Hrun0|].
    apply (rinv_frame st); auto.
Qed.

(* ... and when it neither took nor released an object, it can only have changed the content of
   objects it holds *)
Lemma Inv_local st st' r sc s m :
  Inv st -> refs st' = refs st -> pools st' = pools st -> next st' = next st ->
  rest st' = upd (rest st) r sc -> wb_run s sc = true -> rinv st' r s m ->
  (forall r', r' <> r -> env st' r' = env st r') ->
  (forall b, ~ In (r, b) (refs st) -> cont st' b = cont st b) ->
  Inv st'.
Proof.
  intros HI Hrf Hp Hn Hrest Hrun Hr Henv Hc. destruct (i_excl _ HI) as [Hnd Hex].
  apply (Inv_step st st' r sc s m); auto.
  - unfold exclusive. rewrite Hrf, Hp. exact (conj Hnd Hex).
  - rewrite Hrf, Hp, Hn. exact (i_used _ HI).
  - intros r' b Hne Hin. rewrite Hrf. split; [exact Hin|]. apply Hc. intro Hin'.
    exact (Hne (snd_unique _ _ _ _ Hnd Hin Hin')).
Qed.

Lemma set_rest_other st r sc r' : r' <> r -> rest (set_rest st r sc) r' = rest st r'.
Proof. intro H. cbn. now apply upd_other. Qed.

Lemma bind_other st r v b r' : r' <> r -> bind st r v b r' = env st r'.
Proof. intro H. unfold bind. now apply upd_other. Qed.

Lemma bind_same st r v b v' : bind st r v b r v' = upd (env st r) v b v'.
Proof. unfold bind. now rewrite upd_same. Qed.

(* a Get binds v to a new token, realised by an object b that r did not hold *)
Lemma rinv_get st r s m p v b rs pl ct nx :
  rinv st r s m -> (forall t, live s t -> m t <> b) ->
  (forall t, live s t -> ct (m t) = cont st (m t)) ->
  rinv (mkS rs (bind st r v (Some b)) pl ((r, b) :: refs st) ct nx) r
       (mkA (upd (vars s) v (Some (nxt s))) (upd (stat s) (nxt s) (Dirty p)) (S (nxt s))) (upd m (nxt s) b).
Proof.
  intros [Henv Hvlt Href Hinj Hcln] Hmb Hct. set (n := nxt s).
  assert (Hold : forall t, live (mkA (vars s) (upd (stat s) n (Dirty p)) n) t -> t <> n -> live s t /\ upd m n b t = m t).
  { intros t Hl Hn. unfold live in Hl. cbn [stat] in Hl. rewrite upd_other in Hl by exact Hn.
    split; [exact Hl | now apply upd_other]. }
  constructor; cbn [env refs cont vars stat nxt].
  - intro v'. rewrite bind_same. unfold upd at 1 3. destruct (Nat.eqb v' v).
    + cbn. now rewrite upd_same.
    + rewrite Henv. destruct (vars s v') as [t|] eqn:Ev; cbn; [|reflexivity].
      rewrite upd_other; [reflexivity|]. apply Hvlt in Ev. fold n in Ev. lia.
  - intros v' t. unfold upd. destruct (Nat.eqb v' v).
    + intros [= <-]. lia.
    + intro H. apply Hvlt in H. fold n in H. lia.
  - intros t Hl. destruct (Nat.eq_dec t n) as [->|Hn].
    + rewrite upd_same. now left.
    + destruct (Hold t Hl Hn) as [Hl' ->]. right. now apply Href.
  - intros t t' Hl Hl'. destruct (Nat.eq_dec t n) as [->|Hn], (Nat.eq_dec t' n) as [->|Hn']; [reflexivity | | |].
    + destruct (Hold t' Hl' Hn') as [H ->]. rewrite upd_same. intro He. now destruct (Hmb t' H).
    + destruct (Hold t Hl Hn) as [H ->]. rewrite upd_same. intro He. now destruct (Hmb t H).
    + destruct (Hold t Hl Hn) as [H ->], (Hold t' Hl' Hn') as [H' ->]. now apply Hinj.
  - intros t q. destruct (Nat.eq_dec t n) as [->|Hn]; [now rewrite upd_same|].
    rewrite !upd_other by exact Hn. intros Hc. rewrite Hct by exact (clean_live _ _ _ Hc). exact (Hcln t q Hc).
Qed.

(* Alias and CopyOut bind w to what the checker says it is: a token already known, or nothing *)
Lemma rinv_bind st r s m w x rs :
  rinv st r s m -> (forall t, x = Some t -> t < nxt s) ->
  rinv (mkS rs (bind st r w (option_map m x)) (pools st) (refs st) (cont st) (next st)) r
       (mkA (upd (vars s) w x) (stat s) (nxt s)) m.
Proof.
  intros [Henv Hvlt Href Hinj Hcln] Hx. constructor; cbn [env refs cont vars stat nxt]; auto.
  - intro v'. rewrite bind_same. unfold upd. destruct (Nat.eqb v' w); [reflexivity | apply Henv].
  - intros v' t. unfold upd. destruct (Nat.eqb v' w); [apply Hx | apply Hvlt].
Qed.

Theorem step_preserves st r c st' l :
  Inv st -> step st r c = Some (st', l) -> Inv st' /\ access_ok l.
Proof.
  intros HI Hs.
  destruct (i_req _ HI r) as (s & m & Hrun & Hr).
  destruct (i_excl _ HI) as (_ & Hpl & _).
  pose proof (i_used _ HI) as Hused.
  unfold step in Hs.
  destruct (rest st r) as [|e sc] eqn:Hrest; [discriminate|]. cbn [wb_run] in Hrun.
  destruct (wb_step s e) as [s'|] eqn:Hwb; [|discriminate]. apply wb_step_inv in Hwb.
  destruct e as [p v|p v|v|v|v|v w|v w|v|v].
  - subst s'.
    assert (Hfresh : forall b, ~ In b (map snd (refs st)) -> forall t, live s t -> m t <> b).
    { intros b Hnb t Hl He. apply Hnb. rewrite <- He. eapply in_snd. exact (ri_ref _ _ _ _ Hr t Hl). }
    destruct c as [b|].
    + destruct (mem (p, b) (pools st)) eqn:Hmem; [|discriminate].
      apply mem_In in Hmem. injection Hs as <- <-.
      assert (Hnb : ~ In b (map snd (refs st))) by (eapply Hpl; eauto).
      split; [|split; [reflexivity | intros x []]].
      eapply Inv_step; [exact HI | | | reflexivity | exact Hrun | apply rinv_get; [exact Hr | now apply Hfresh | reflexivity] | | ].
      * exact (excl_move _ _ r (p, b) (i_excl _ HI) Hmem).
      * intros b' Hb'. apply Hused. exact (move_sub _ _ r (p, b) b' Hmem Hb').
      * intros r' Hne. now apply bind_other.
      * intros r' b' _ Hin. split; [now right | reflexivity].
    + injection Hs as <- <-.
      assert (Hlt : forall b, In b (map snd (refs st)) \/ In b (map snd (pools st)) -> b <> next st).
      { intros b Hb ->. apply Hused in Hb. lia. }
      assert (Hnb : ~ In (next st) (map snd (refs st))) by (intro Hx; now apply (Hlt (next st)); [left|]).
      split; [|split; [reflexivity | intros x []]].
      eapply Inv_step; [exact HI | | | reflexivity | exact Hrun | apply rinv_get; [exact Hr | now apply Hfresh | ] | | ].
      * exact (excl_new _ _ r _ (i_excl _ HI) Hnb (fun Hx => Hlt _ (or_intror Hx) eq_refl)).
      * cbn [refs pools next map snd]. intros b' [[<-|Hin]|Hin]; [apply Nat.lt_succ_diag_r | apply Nat.lt_lt_succ_r, Hused; auto ..].
      * intros t Hl. apply upd_other. now apply Hfresh.
      * intros r' Hne. now apply bind_other.
      * intros r' b' _ Hin. split; [now right|]. apply upd_other. apply Hlt. left. eapply in_snd; eauto.
  - destruct Hwb as (t & Ev & Hlt & ->).
    destruct (rinv_held _ _ _ _ _ _ Hr Ev Hlt) as [Hb Hin]. rewrite Hb in Hs. injection Hs as <- <-.
    split; [|apply access_held; [exact Hin | intros x []]].
    destruct Hr as [Henv Hvlt Href Hinj Hcln].
    assert (Hold : forall t0, live (mkA (vars s) (upd (stat s) t Dead) (nxt s)) t0 -> live s t0 /\ t0 <> t).
    { intros t0. unfold live. cbn [stat]. destruct (Nat.eq_dec t0 t) as [->|Hn]; [now rewrite upd_same|].
      now rewrite upd_other. }
    eapply Inv_step with (m := m); [exact HI | | | reflexivity | exact Hrun | | reflexivity | ].
    + exact (excl_sym _ _ (excl_move _ _ p (r, m t) (excl_sym _ _ (i_excl _ HI)) Hin)).
    + intros b' Hb'. apply Hused. apply or_comm. apply or_comm in Hb'. exact (move_sub _ _ p (r, m t) b' Hin Hb').
    + constructor; cbn [env refs cont vars stat nxt]; auto.
      * intros t0 Hl. destruct (Hold t0 Hl) as [Hl0 Hn]. apply remove_one_other; [|now apply Href].
        intros [= Heq]. now apply Hn, Hinj.
      * intros t0 t1 Hl0 Hl1. apply Hinj; now apply Hold.
      * intros t0 q. destruct (Nat.eq_dec t0 t) as [->|Hn0]; [now rewrite upd_same|].
        rewrite upd_other by exact Hn0. apply Hcln.
    + intros r0 b0 H0 Hx. split; [|reflexivity]. apply remove_one_other; [congruence | exact Hx].
  - destruct Hwb as (t & q & Ev & Hlt & ->).
    destruct (rinv_held _ _ _ _ _ _ Hr Ev Hlt) as [Hb Hin]. rewrite Hb in Hs. injection Hs as <- <-.
    split; [|apply access_held; [exact Hin | intros x []]].
    eapply (Inv_local st) with (m := m); try reflexivity; [exact HI | exact Hrun | |].
    + destruct Hr as [Henv Hvlt Href Hinj Hcln].
      assert (Hlv : forall t0, live (mkA (vars s) (upd (stat s) t (Clean q)) (nxt s)) t0 -> live s t0).
      { intros t0. unfold live. cbn [stat]. destruct (Nat.eq_dec t0 t) as [->|Hn]; [auto | now rewrite upd_other]. }
      constructor; cbn [env refs cont vars stat nxt]; auto.
      * intros t0 q0. destruct (Nat.eq_dec t0 t) as [->|Hn0].
        -- rewrite !upd_same. intros _ x [].
        -- rewrite upd_other by exact Hn0. intros Hc x. rewrite upd_other; [eauto|].
           intro He. apply Hn0, Hinj; auto. exact (clean_live _ _ _ Hc).
    + intros b Hnb. apply upd_other. now intros ->.
  - destruct Hwb as (t & q & Ev & Est & ->).
    destruct (rinv_held _ _ _ _ _ _ Hr Ev (clean_live _ _ _ Est)) as [Hb Hin]. rewrite Hb in Hs. injection Hs as <- <-.
    split; [|apply access_held; [exact Hin | intros x []]].
    eapply (Inv_local st) with (m := m); try reflexivity; [exact HI | exact Hrun | |].
    + destruct Hr as [Henv Hvlt Href Hinj Hcln].
      constructor; cbn [env refs cont]; auto.
      intros t0 q0 Hc x. destruct (Nat.eq_dec (m t0) (m t)) as [He|He].
      * rewrite He, upd_same. intros [Hx|Hx]; [auto|]. exact (Hcln t q Est x Hx).
      * rewrite upd_other by auto. eauto.
    + intros b Hnb. apply upd_other. now intros ->.
  - destruct Hwb as (t & q & Ev & Est & ->).
    destruct (rinv_held _ _ _ _ _ _ Hr Ev (clean_live _ _ _ Est)) as [Hb Hin]. rewrite Hb in Hs. injection Hs as <- <-.
    split; [|apply access_held; [exact Hin | exact (ri_cln _ _ _ _ Hr t q Est)]].
    eapply (Inv_local st) with (m := m); try reflexivity; [exact HI | exact Hrun | ].
    apply (rinv_frame st); auto.
  - destruct Hwb as (t & Ev & Hlt & ->).
    destruct (rinv_held _ _ _ _ _ _ Hr Ev Hlt) as [Hb Hin]. rewrite Hb in Hs. injection Hs as <- <-.
    split; [|apply access_held; [exact Hin | intros x []]].
    eapply (Inv_local st) with (m := m); try reflexivity; [exact HI | exact Hrun | | intros r' Hne; now apply bind_other].
    apply (rinv_bind st r s m w (Some t)); [exact Hr|]. intros t0 [= <-]. exact (ri_vlt _ _ _ _ Hr v t Ev).
  - destruct Hwb as (t & q & Ev & Est & ->).
    destruct (rinv_held _ _ _ _ _ _ Hr Ev (clean_live _ _ _ Est)) as [Hb Hin]. rewrite Hb in Hs. injection Hs as <- <-.
    split; [|apply access_held; [exact Hin | exact (ri_cln _ _ _ _ Hr t q Est)]].
    eapply (Inv_local st) with (m := m); try reflexivity; [exact HI | exact Hrun | | intros r' Hne; now apply bind_other].
    apply (rinv_bind st r s m w None); [exact Hr | discriminate].
  - (* Retain: only of something that is not a pooled object *)
    destruct Hwb as [Ev ->].
    assert (Hb : env st r v = None) by (rewrite (ri_env _ _ _ _ Hr), Ev; reflexivity).
    rewrite Hb in Hs. injection Hs as <- <-.
    split; [|split; [reflexivity | intros x []]].
    eapply (Inv_local st) with (m := m); try reflexivity; [exact HI | exact Hrun | ].
    apply (rinv_frame st); auto.
  - destruct Hwb.
Qed.

Lemma run_preserves sched : forall st st' ls,
  Inv st -> run st sched = Some (st', ls) -> Inv st' /\ Forall access_ok ls.
Proof.
  induction sched as [|[r c] sched IH]; intros st st' ls HI Hr; cbn [run] in Hr.
  - injection Hr as <- <-. split; [exact HI | constructor].
  - destruct (step st r c) as [[st1 l]|] eqn:Hs; [|discriminate].
    destruct (run st1 sched) as [[st2 ls2]|] eqn:Hr2; [|discriminate].
    injection Hr as <- <-.
    destruct (step_preserves _ _ _ _ _ HI Hs) as [HI1 Hl].
    destruct (IH _ _ _ HI1 Hr2) as [HI2 Hls].
    split; [exact HI2 | constructor; assumption].
Qed.

(* the main statement: any number of requests (all r : nat), any scripts, any schedule *)
Theorem exclusive_all_interleavings :
  forall (scripts : rid -> script),
    (forall r, well_bracketed (scripts r) = true) ->
    forall sched st ls, run (init scripts) sched = Some (st, ls) ->
      exclusive st /\ Forall access_ok ls.
Proof.
  intros scripts Hwb sched st ls Hr.
  destruct (run_preserves sched _ _ _ (init_inv scripts Hwb) Hr) as [HI Hls].
  split; [exact (i_excl _ HI) | exact Hls].
Qed.

(* holding is exclusive: in an exclusive state an object a request holds is held by nobody else
   and lies in no pool *)
Lemma exclusive_holder st r r' b :
  exclusive st -> In (r, b) (refs st) -> In (r', b) (refs st) -> r = r'.
Proof. intros [H _]. now apply snd_unique. Qed.

Lemma exclusive_not_pooled st r p b :
  exclusive st -> In (r, b) (refs st) -> ~ In (p, b) (pools st).
Proof. intros [_ [H _]] Hin Hp. eapply H; eauto. eapply in_snd; eauto. Qed.

Theorem exclusive_for_script_set (all : list script) :
  forallb well_bracketed all = true ->
  forall scripts : rid -> script, (forall r, In (scripts r) all \/ scripts r = []) ->
  forall sched st ls, run (init scripts) sched = Some (st, ls) ->
    exclusive st /\ Forall access_ok ls.
Proof.
  intros Hall scripts Hin. apply exclusive_all_interleavings.
  intro r. destruct (Hin r) as [H|H].
  - rewrite forallb_forall in Hall. now apply Hall.
  - rewrite H. reflexivity.
Qed.

(* the checker stops at the first event it refuses: what it accepts, it accepts prefix by prefix *)
Lemma wb_run_app s a b : wb_run s (a ++ b) = true -> wb_run s a = true.
Proof.
  revert s. induction a as [|e a IH]; intros s; cbn [wb_run app]; [reflexivity|].
  destruct (wb_step s e); [apply IH | discriminate].
Qed.

Lemma well_bracketed_prefix a b : well_bracketed (a ++ b) = true -> well_bracketed a = true.
Proof. apply wb_run_app. Qed.

(* reflections for the refutations of Properties/C13.v *)
Lemma existsb_nat_In x l : existsb (Nat.eqb x) l = true <-> In x l.
Proof.
  rewrite existsb_exists. split.
  - intros (y & Hy & E). apply Nat.eqb_eq in E. now subst y.
  - intro H. exists x. split; [exact H | apply Nat.eqb_refl].
Qed.

Lemma nodupb_iff l : nodupb l = true <-> NoDup l.
Proof.
  induction l as [|x l IH]; cbn [nodupb]; [split; [constructor | reflexivity]|].
  rewrite andb_true_iff, negb_true_iff, <- Bool.not_true_iff_false, existsb_nat_In, IH.
  split; [intros [H1 H2]; now constructor | intro H; inversion H; auto].
Qed.

Lemma nodupb_NoDup l : nodupb l = true -> NoDup l.
Proof. apply nodupb_iff. Qed.

Lemma exclusive_b_false st : exclusive_b st = false -> ~ exclusive st.
Proof.
  intros Hb [H1 [H2 H3]]. unfold exclusive_b in Hb.
  rewrite (proj2 (nodupb_iff _) H1), (proj2 (nodupb_iff _) H3) in Hb. cbn [andb] in Hb.
  assert (forallb (fun pb => negb (existsb (Nat.eqb (snd pb)) (map snd (refs st)))) (pools st) = true).
  { apply forallb_forall. intros [p b] Hin. cbn [snd].
    rewrite negb_true_iff, <- Bool.not_true_iff_false, existsb_nat_In. exact (H2 p b Hin). }
  congruence.
Qed.

Lemma access_ok_b_false l : access_ok_b l = false -> ~ access_ok l.
Proof.
  intros Hb [H1 H2]. unfold access_ok_b in Hb. rewrite H1 in Hb. cbn [andb] in Hb.
  assert (forallb (Nat.eqb (who l)) (saw l) = true).
  { apply forallb_forall. intros x Hx. apply Nat.eqb_eq. symmetry. auto. }
  congruence.
Qed.

Lemma gfind_gset_same r d l : gfind r (gset r d l) = Some d.
Proof.
  induction l as [|[x e] l IH]; cbn [gset gfind].
  - now rewrite Nat.eqb_refl.
  - destruct (Nat.eqb x r) eqn:E; cbn [gfind]; rewrite E; auto.
Qed.

Lemma gfind_gset_other r r' d l : r' <> r -> gfind r' (gset r d l) = gfind r' l.
Proof.
  intro Hne. induction l as [|[x e] l IH]; cbn [gset gfind].
  - apply Nat.eqb_neq in Hne. rewrite Nat.eqb_sym in Hne. now rewrite Hne.
  - destruct (Nat.eqb x r) eqn:E; cbn [gfind].
    + apply Nat.eqb_eq in E. subst x. assert (Hf : Nat.eqb r r' = false) by (apply Nat.eqb_neq; congruence).
      now rewrite Hf.
    + destruct (Nat.eqb x r'); auto.
Qed.

Definition gop_rid (o : gop) : rid := match o with GOpen r | GReadAll r | GReadMore r => r end.

(* the view request r has of the pool: only its own wrapper *)
Lemma gstep_local g o r :
  gop_rid o <> r -> gfind r (gopen (fst (gstep g o))) = gfind r (gopen g).
Proof.
  intro Hne. destruct o as [x|x|x]; cbn [gop_rid] in Hne; cbn [gstep].
  - cbn. apply gfind_gset_other; congruence.
  - destruct (gfind x (gopen g)) as [[|]|]; cbn; auto; apply gfind_gset_other; congruence.
  - destruct (gfind x (gopen g)) as [[|]|]; cbn; auto; apply gfind_gset_other; congruence.
Qed.

(* the observation of r's operation is a function of r's own wrapper state alone *)
Lemma gstep_obs_own g g' o :
  gfind (gop_rid o) (gopen g) = gfind (gop_rid o) (gopen g') ->
  snd (gstep g o) = snd (gstep g' o) /\
  gfind (gop_rid o) (gopen (fst (gstep g o))) = gfind (gop_rid o) (gopen (fst (gstep g' o))).
Proof.
  destruct o as [x|x|x]; cbn [gop_rid gstep]; intro H.
  - cbn. rewrite !gfind_gset_same. auto.
  - destruct (gfind x (gopen g)) as [[|]|] eqn:E; rewrite <- H; cbn; rewrite ?gfind_gset_same; split; congruence.
  - destruct (gfind x (gopen g)) as [[|]|] eqn:E; rewrite <- H; cbn; rewrite ?gfind_gset_same; split; congruence.
Qed.
