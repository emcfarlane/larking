(* Proofs about Model/Snapshot.v: published snapshots are never written, a writer's work is
   invisible until its store, readers are linearizable at their load. *)
From Larking Require Import Base.GoSem Model.Registry Model.Snapshot.
Local Open Scope nat_scope.

Lemma cell_wr h l c x : cell_at (wr h l c) x = if l =? x then Some c else cell_at h x.
Proof. reflexivity. Qed.
Lemma node_wr_other h l c x : l <> x -> node_at (wr h l c) x = node_at h x.
Proof. intro N. unfold node_at. rewrite cell_wr. apply Nat.eqb_neq in N. rewrite N. reflexivity. Qed.
Lemma node_wr_same h l n : node_at (wr h l (CNode n)) l = n.
Proof. unfold node_at. rewrite cell_wr, Nat.eqb_refl. reflexivity. Qed.

Definition frame (h h' : heap) (ws : list loc) : Prop := forall x, ~ In x ws -> cell_at h' x = cell_at h x.
Definition closed (h : heap) (s : snap) : Prop :=
  In (sroot s) (sregion s) /\
  forall l, In l (sregion s) -> forall e, In e (nkids (node_at h l)) -> In (snd e) (sregion s).
(* the writer's working copy: all of it allocated since the writer began *)
Definition Own (b : loc) (h : heap) (s : snap) : Prop :=
  (forall l, In l (footprint s) -> b <= l < next h) /\ closed h s.

Lemma frame_wr h l c : frame h (wr h l c) [l].
Proof. intros x Hx. rewrite cell_wr. destruct (Nat.eqb_spec l x); [destruct Hx; left; assumption|reflexivity]. Qed.
Lemma frame_trans h1 h2 h3 a b : frame h1 h2 a -> frame h2 h3 b -> frame h1 h3 (a ++ b).
Proof. intros F G x Hx. rewrite G, F; auto; intro; apply Hx; apply in_or_app; auto. Qed.

Lemma aget_in {A} k (l : list (nat * A)) v : aget k l = Some v -> In (k, v) l.
Proof.
  induction l as [|[a x] l IH]; cbn [aget]; [discriminate|].
  destruct (a =? k) eqn:E; [apply Nat.eqb_eq in E; subst; intro H; inversion H; left; reflexivity|].
  intro H. right. apply IH. exact H.
Qed.
Lemma aget_none_notin {A} v (l : list (nat * A)) : aget v l = None -> ~ In v (map fst l).
Proof.
  induction l as [|[a x] l IH]; cbn [aget map fst]; [intros _ []|].
  destruct (Nat.eqb_spec a v) as [_|N]; [discriminate|]. intros U [Q|Q]; [exact (N Q)|exact (IH U Q)].
Qed.
Lemma aget_app_fresh {A} x (l1 l2 : list (nat * A)) : (forall k v, In (k, v) l1 -> k <> x) -> aget x (l1 ++ l2) = aget x l2.
Proof.
  induction l1 as [|[k v] l1 IH]; intro H; cbn [app aget]; [reflexivity|].
  destruct (k =? x) eqn:E; [apply Nat.eqb_eq in E; exfalso; apply (H k v); [left; reflexivity|exact E]|].
  apply IH. intros k' v' Hin. apply (H k' v'). right. exact Hin.
Qed.
Lemma aget_map_snd {A B} (f : A -> B) k (l : list (nat * A)) :
  aget k (map (fun e => (fst e, f (snd e))) l) = match aget k l with Some v => Some (f v) | None => None end.
Proof.
  induction l as [|[a v] l IH]; [reflexivity|]. cbn [map aget fst snd].
  destruct (a =? k); [reflexivity|exact IH].
Qed.

Definition kids_closed (h : heap) (reg : list loc) : Prop :=
  forall l, In l reg -> forall e, In e (nkids (node_at h l)) -> In (snd e) reg.
Lemma child_in_region h reg l lab p : kids_closed h reg -> In l reg -> aget lab (nkids (node_at h l)) = Some p -> In p reg.
Proof. intros C Hl K. exact (C l Hl (lab, p) (aget_in _ _ _ K)). Qed.

(* closedness looks at the child lists of the region only, and survives their shrinking *)
Lemma closed_incl h h' s : closed h s ->
  (forall x, In x (sregion s) -> incl (nkids (node_at h' x)) (nkids (node_at h x))) -> closed h' s.
Proof. intros [R C] F. split; [exact R|]. intros l Hl e He. exact (C l Hl e (F l Hl e He)). Qed.
Lemma closed_frame h h' s : closed h s -> (forall x, In x (sregion s) -> cell_at h' x = cell_at h x) -> closed h' s.
Proof. intros C F. apply (closed_incl h); [exact C|]. intros x Hx. unfold node_at. rewrite (F x Hx). apply incl_refl. Qed.

(* a write that gives no node new children *)
Lemma Own_wr b h s l c : Own b h s -> (forall n, c = CNode n -> incl (nkids n) (nkids (node_at h l))) ->
  Own b (wr h l c) s.
Proof.
  intros [F C] K. split; [exact F|]. apply (closed_incl h); [exact C|]. intros x _.
  unfold node_at at 1. rewrite cell_wr. destruct (Nat.eqb_spec l x) as [<-|_]; [|apply incl_refl].
  destruct c as [n|?|?]; [exact (K n eq_refl) | intros e [] | intros e []].
Qed.

(* one new edge l --lab--> p to a fresh empty node p *)
Record AddEdge (h h2 : heap) (reg : list loc) (l : loc) (lab : nat) (p : loc) : Prop := {
  aeC : kids_closed h reg;
  aeP : ~ In p reg;
  aeN : aget lab (nkids (node_at h l)) = None;
  ae2l : node_at h2 l = Node (aset lab p (nkids (node_at h l))) (nbinds (node_at h l));
  ae2p : node_at h2 p = Node [] [];
  ae2o : forall x, x <> l -> x <> p -> node_at h2 x = node_at h x }.

(* a missing edge: the fresh empty node p = next h, and l rewritten with the edge lab -> p *)
Lemma new_edge_spec b h s l lab : Own b h s -> In l (sregion s) -> aget lab (nkids (node_at h l)) = None ->
  let p := next h in
  let h2 := wr (Heap (aset p (CNode (Node [] [])) (cells h)) (S p)) l
               (CNode (Node (aset lab p (nkids (node_at h l))) (nbinds (node_at h l)))) in
  Own b h2 (Snap (sroot s) (p :: sregion s) (shm s) (scm s)) /\ b <= p /\ frame h h2 [p; l] /\
  AddEdge h h2 (sregion s) l lab p.
Proof.
  intros [F [R C]] Hl K p h2.
  assert (Lp : l < p) by (apply (F l); right; right; exact Hl).
  assert (Bp : b <= p) by (pose proof (F (shm s) (or_introl eq_refl)); unfold p; lia).
  assert (Fr : frame h h2 [p; l]).
  { intros x Hx. unfold h2. rewrite cell_wr. destruct (Nat.eqb_spec l x) as [E|_]; [destruct Hx; right; left; exact E|].
    unfold cell_at; cbn [cells aset aget]. destruct (Nat.eqb_spec p x) as [E|_]; [destruct Hx; left; exact E|reflexivity]. }
  assert (Np : node_at h2 p = Node [] []).
  { unfold h2. rewrite node_wr_other by lia. unfold node_at, cell_at; cbn [cells aset aget]. rewrite Nat.eqb_refl. reflexivity. }
  split; [split|split; [exact Bp|split; [exact Fr|]]].
  - intros x Hx. assert (Hx' : p = x \/ In x (footprint s)) by (cbn in Hx |- *; tauto).
    change (next h2) with (S p). destruct Hx' as [<-|Hx']; [lia|]. pose proof (F x Hx'). unfold p. lia.
  - split; [right; exact R|]. cbn [sregion]. intros x Hx e He. destruct (Nat.eq_dec x l) as [->|Xl].
    + unfold h2 in He. rewrite node_wr_same in He. destruct He as [<-|He]; [left; reflexivity|right; exact (C l Hl e He)].
    + destruct Hx as [<-|Hx]; [rewrite Np in He; destruct He|]. right. apply (C x Hx e).
      unfold node_at in *. rewrite <- (Fr x); [exact He|]. intros [Q|[Q|[]]]; [|congruence].
      pose proof (F x (or_intror (or_intror Hx))). unfold p in Q. lia.
  - constructor; [exact C| |exact K|apply node_wr_same|exact Np|].
    + intro Q. pose proof (F p (or_intror (or_intror Q))). unfold p in *. lia.
    + intros x X1 X2. unfold node_at. rewrite Fr; [reflexivity|]. intros [Q|[Q|[]]]; congruence.
Qed.

Lemma nav_create_spec b labels : forall h s l h' s' l' ws, Own b h s -> In l (sregion s) ->
  nav_create h s l labels = (h', s', l', ws) ->
  Own b h' s' /\ In l' (sregion s') /\ (forall x, In x ws -> b <= x) /\ frame h h' ws /\ next h <= next h'.
Proof.
  induction labels as [|lab rest IH]; intros h s l h' s' l' ws O Hl E; cbn [nav_create] in E.
  - injection E as <- <- <- <-. split; [exact O|]. split; [exact Hl|]. split; [intros x []|]. split; [intros x _; reflexivity|apply le_n].
  - destruct (aget lab (nkids (node_at h l))) as [p|] eqn:K.
    + apply (IH h s p); [exact O| |exact E]. exact (child_in_region h _ l lab p (proj2 (proj2 O)) Hl K).
    + destruct (new_edge_spec b h s l lab O Hl K) as (O2 & Bp & Fr & _). cbn [al] in E.
      destruct (nav_create _ _ _ rest) as [[[h3 s3] l3] ws3] eqn:E3. injection E as <- <- <- <-.
      destruct (IH _ _ _ _ _ _ _ O2 (or_introl eq_refl) E3) as (A1 & A2 & A3 & A4 & A5).
      split; [exact A1|]. split; [exact A2|]. split; [|split].
      * intros x [<-|[<-|Hx]]; [exact Bp| |exact (A3 x Hx)]. apply (proj1 O l). right; right; exact Hl.
      * exact (frame_trans _ _ _ [_; _] ws3 Fr A4).
      * exact (Nat.le_trans _ _ _ (Nat.le_succ_diag_r _) A5).
Qed.

Lemma fold_del_spec b s m reg : forall h, Own b h s ->
  let h' := fold_left (fun hh l => wr hh l (CNode (del_binds m (node_at hh l)))) reg h in
  Own b h' s /\ next h' = next h /\ frame h h' reg.
Proof.
  induction reg as [|l reg IH]; intros h O; cbn [fold_left].
  - split; [exact O|]. split; [reflexivity|intros x _; reflexivity].
  - destruct (IH (wr h l (CNode (del_binds m (node_at h l))))) as (A & B & C).
    { apply Own_wr; [exact O|]. intros n [= <-]. apply incl_refl. }
    split; [exact A|]. split; [exact B|]. exact (frame_trans _ _ _ [l] reg (frame_wr _ _ _) C).
Qed.

Lemma apply_mut_spec b h s mu h' s' ws : Own b h s -> apply_mut h s mu = (h', s', ws) ->
  Own b h' s' /\ (forall x, In x ws -> b <= x) /\ frame h h' ws /\ next h <= next h'.
Proof.
  intros O E. pose proof (proj1 O) as F. destruct mu as [labels verb m|m|v|v]; cbn [apply_mut] in E.
  - destruct (nav_create h s (sroot s) labels) as [[[h1 s1] l] ws1] eqn:N. injection E as <- <- <-.
    destruct (nav_create_spec b labels _ _ _ _ _ _ _ O (proj1 (proj2 O)) N) as (O1 & Hl & A3 & A4 & A5).
    split; [|split; [|split]].
    + apply Own_wr; [exact O1|]. intros n [= <-]. apply incl_refl.
    + intros x Hx. apply in_app_or in Hx. destruct Hx as [Hx|[<-|[]]]; [exact (A3 x Hx)|].
      apply (proj1 O1 l). right; right; exact Hl.
    + exact (frame_trans _ _ _ _ _ A4 (frame_wr _ _ _)).
    + exact A5.
  - injection E as <- <- <-. destruct (fold_del_spec b s m (sregion s) h O) as (A & B & C).
    split; [exact A|]. split; [intros x Hx; apply (F x); right; right; exact Hx|]. split; [exact C|rewrite B; lia].
  - injection E as <- <- <-. split; [apply Own_wr; [exact O|intros n [=]]|].
    split; [intros x [<-|[]]; apply (F (shm s)); left; reflexivity|]. split; [apply frame_wr|cbn; lia].
  - injection E as <- <- <-. split; [apply Own_wr; [exact O|intros n [=]]|].
    split; [intros x [<-|[]]; apply (F (scm s)); right; left; reflexivity|]. split; [apply frame_wr|cbn; lia].
Qed.

Lemma index_of_spec p reg : In p reg -> exists i, index_of p reg = Some i /\ nth i reg 0 = p /\ i < length reg.
Proof.
  induction reg as [|q reg IH]; [intros []|]. cbn [index_of length]. intro H.
  destruct (Nat.eqb_spec q p) as [E|N]; [exists 0; split; [reflexivity|split; [exact E|lia]]|].
  destruct H as [H|H]; [contradiction|].
  destruct (IH H) as (i & -> & Hn & Hi). exists (S i). split; [reflexivity|split; [exact Hn|lia]].
Qed.
Lemma remap_in p reg b : In p reg -> In (remap reg b p) (seq b (length reg)).
Proof. intro H. unfold remap. destruct (index_of_spec p reg H) as (i & -> & _ & Hi). apply in_seq. lia. Qed.

Lemma aget_combine_seq_map {A} (f : loc -> A) reg : forall b i rest, i < length reg ->
  aget (b + i) (combine (seq b (length reg)) (map f reg) ++ rest) = Some (f (nth i reg 0)).
Proof.
  induction reg as [|x reg IH]; intros b i rest Hi; cbn [length] in Hi; [lia|].
  cbn [length seq map combine app aget nth]. destruct i as [|i].
  - rewrite Nat.add_0_r, Nat.eqb_refl. reflexivity.
  - destruct (b =? b + S i) eqn:E; [apply Nat.eqb_eq in E; lia|].
    replace (b + S i) with (S b + i) by lia. apply IH. lia.
Qed.
Lemma in_combine_seq {A} b (vals : list A) k v : In (k, v) (combine (seq b (length vals)) vals) -> b <= k < b + length vals.
Proof. intro H. apply in_combine_l in H. apply in_seq in H. exact H. Qed.

(* the i-th fresh cell of a clone is the copy of the i-th node of the region *)
Lemma clone_cell h s i : i < length (sregion s) ->
  node_at (fst (clone_snap h (Some s))) (next h + i) = clone_node (sregion s) (next h) (node_at h (nth i (sregion s) 0)).
Proof.
  intro Hi. unfold node_at at 1. unfold cell_at. cbn [clone_snap fst cells].
  rewrite (aget_combine_seq_map (fun l => CNode (clone_node (sregion s) (next h) (node_at h l)))) by exact Hi.
  reflexivity.
Qed.
Lemma clone_node_at h s x : In x (sregion s) ->
  node_at (fst (clone_snap h (Some s))) (remap (sregion s) (next h) x) = clone_node (sregion s) (next h) (node_at h x).
Proof.
  intro Hx. unfold remap. destruct (index_of_spec x (sregion s) Hx) as (i & -> & Nx & Li).
  rewrite (clone_cell h s i Li), Nx. reflexivity.
Qed.

Lemma clone_spec h p h' s' : (forall s, p = Some s -> closed h s) -> clone_snap h p = (h', s') ->
  Own (next h) h' s' /\ frame h h' (footprint s') /\ next h <= next h'.
Proof.
  intros Hc E. destruct p as [s|].
  - destruct (Hc s eq_refl) as [R C]. pose proof (clone_cell h s) as CC. rewrite E in CC.
    cbn [clone_snap] in E. injection E as <- <-. cbn [fst] in CC.
    split; [|split].
    + split.
      * intros x Hx. unfold footprint in Hx; cbn [shm scm sregion next] in *.
        destruct Hx as [<-|[<-|Hx]]; [lia|lia|]. apply in_seq in Hx. lia.
      * split; cbn [sroot sregion]; [apply remap_in; exact R|].
        intros x Hx e He. apply in_seq in Hx. replace x with (next h + (x - next h)) in He by lia.
        rewrite CC in He by lia. apply in_map_iff in He. destruct He as (e0 & <- & He0). cbn [snd].
        apply remap_in. apply (C (nth (x - next h) (sregion s) 0)); [apply nth_In; lia|exact He0].
    + intros x Hx. unfold footprint in Hx; cbn [shm scm sregion] in Hx. unfold cell_at; cbn [cells]. rewrite aget_app_fresh.
      * cbn [aget]. destruct (next h + length (sregion s) =? x) eqn:E1; [apply Nat.eqb_eq in E1; exfalso; apply Hx; left; exact E1|].
        destruct (next h + length (sregion s) + 1 =? x) eqn:E2; [apply Nat.eqb_eq in E2; exfalso; apply Hx; right; left; exact E2|]. reflexivity.
      * intros k v Hin <-. apply Hx. right; right. apply in_combine_l in Hin. exact Hin.
    + cbn [next]. lia.
  - cbn [clone_snap] in E. injection E as <- <-. split; [|split].
    + split.
      * intros x Hx. unfold footprint in *; cbn [shm scm sregion next] in *. destruct Hx as [<-|[<-|[<-|[]]]]; lia.
      * split; cbn [sroot sregion]; [left; reflexivity|]. intros x [<-|[]] e He.
        unfold node_at, cell_at in He; cbn [cells aget] in He. rewrite Nat.eqb_refl in He. destruct He.
    + intros x Hx. unfold footprint in Hx; cbn [shm scm sregion] in Hx. unfold cell_at; cbn [cells aget].
      destruct (next h =? x) eqn:E1; [apply Nat.eqb_eq in E1; exfalso; apply Hx; right; right; left; exact E1|].
      destruct (next h + 1 =? x) eqn:E2; [apply Nat.eqb_eq in E2; exfalso; apply Hx; left; exact E2|].
      destruct (next h + 2 =? x) eqn:E3; [apply Nat.eqb_eq in E3; exfalso; apply Hx; right; left; exact E3|]. reflexivity.
    + cbn [next]. lia.
Qed.

Definition bound (w : world) : loc := match cur w with Some ws => wbase ws | None => next (hp w) end.
Definition reader_ok (w : world) (r : rstate) : Prop :=
  match r with RWalk s l _ _ => In s (stored w) /\ In l (sregion s) | RDone _ => True end.
Record WI (w : world) : Prop := {
  wA : forall s, In s (stored w) -> forall l, In l (footprint s) -> l < bound w;
  wB : forall s, In s (stored w) -> closed (hp w) s;
  wC : match cur w with Some ws => Own (wbase ws) (hp w) (wsnap ws) | None => True end;
  wD : pub w = match stored w with [] => None | s :: _ => Some s end;
  wE : bound w <= next (hp w);
  wF : Forall (reader_ok w) (readers w) }.

Lemma WI0 : WI world0.
Proof. constructor; cbn; auto; try tauto. Qed.

(* what an event does to the stored snapshots, the published pointer and the readers *)
Lemma wstep_proj w e :
  stored (wstep w e) = match e, cur w with EStore, Some ws => wsnap ws :: stored w | _, _ => stored w end /\
  pub (wstep w e) = match e, cur w with EStore, Some ws => Some (wsnap ws) | _, _ => pub w end /\
  readers (wstep w e) =
    match e with
    | ELoad l v => readers w ++ [match pub w with None => RDone None | Some s => RWalk s (sroot s) l v end]
    | ERead i => upd i (rstep (hp w)) (readers w)
    | _ => readers w
    end.
Proof.
  destruct e; cbn [wstep]; try destruct (cur w); try destruct (clone_snap _ _);
    try destruct (apply_mut _ _ _) as [[? ?] ?]; auto.
Qed.

Lemma pub_stored w s : WI w -> pub w = Some s -> In s (stored w).
Proof. intros I E. pose proof (wD _ I) as D. rewrite E in D. destruct (stored w); [discriminate|]. inversion D. left; reflexivity. Qed.
Lemma pub_closed w : WI w -> forall s, pub w = Some s -> closed (hp w) s.
Proof. intros I s E. exact (wB _ I s (pub_stored w s I E)). Qed.

(* an event changes no cell outside what it reports as written, and writes nothing below the bound *)
Lemma wstep_frame w e : WI w ->
  frame (hp w) (hp (wstep w e)) (writes_of w e) /\ (forall x, In x (writes_of w e) -> bound w <= x).
Proof.
  intro I. pose proof (wC _ I) as O. unfold bound.
  assert (NW : forall b, frame (hp w) (hp w) [] /\ forall x, In x [] -> b <= x) by (split; [intros x _; reflexivity|intros x []]).
  destruct e as [|mu| | |labels verb|i]; cbn [wstep writes_of]; try apply NW;
    destruct (cur w) as [ws|]; try apply NW.
  - destruct (clone_snap (hp w) (pub w)) as [h s] eqn:E.
    destruct (clone_spec _ _ _ _ (pub_closed w I) E) as ([F _] & A & _).
    split; [exact A|]. intros x Hx. apply F. exact Hx.
  - destruct (apply_mut (hp w) (wsnap ws) mu) as [[h s] wl] eqn:E.
    destruct (apply_mut_spec _ _ _ _ _ _ _ O E) as (_ & A & B & _). exact (conj B A).
Qed.

Lemma stored_cells_stable w e s : WI w -> In s (stored w) -> forall x, In x (footprint s) ->
  cell_at (hp (wstep w e)) x = cell_at (hp w) x.
Proof.
  intros I Hs x Hx. destruct (wstep_frame w e I) as [F B]. apply F. intro Q.
  pose proof (B x Q). pose proof (wA _ I s Hs x Hx). lia.
Qed.
Lemma stored_region_stable w e s : WI w -> In s (stored w) -> forall x, In x (sregion s) ->
  cell_at (hp (wstep w e)) x = cell_at (hp w) x.
Proof. intros I Hs x Hx. apply (stored_cells_stable w e s I Hs). right; right; exact Hx. Qed.

Lemma stored_mono w e s : In s (stored w) -> In s (stored (wstep w e)).
Proof. rewrite (proj1 (wstep_proj w e)). destruct e, (cur w); auto. right; auto. Qed.

Lemma Forall_upd {A} (P : A -> Prop) f l : forall i, Forall P l -> (forall x, P x -> P (f x)) -> Forall P (upd i f l).
Proof.
  induction l as [|a l IH]; intros i F Hf; [destruct i; constructor|].
  inversion F; subst. destruct i; cbn [upd]; constructor; auto.
Qed.

Lemma rstep_ok w h r : (forall s, In s (stored w) -> closed h s) -> reader_ok w r -> reader_ok w (rstep h r).
Proof.
  intros C O. destruct r as [s l rest verb|res]; [|exact I]. destruct O as [Hs Hl].
  destruct rest as [|lab rest]; cbn [rstep]; [exact I|].
  destruct (aget lab (nkids (node_at h l))) as [p|] eqn:K; [|exact I]. split; [exact Hs|].
  exact (child_in_region h _ l lab p (proj2 (C s Hs)) Hl K).
Qed.

Lemma reader_ok_stored w w' r : (forall s, In s (stored w) -> In s (stored w')) -> reader_ok w r -> reader_ok w' r.
Proof. intros M O. destruct r; [|exact I]. destruct O. split; auto. Qed.

Lemma wstep_WI w e : WI w -> WI (wstep w e).
Proof.
  intro I.
  assert (STB : forall s, In s (stored w) -> closed (hp (wstep w e)) s).
  { intros s Hs. exact (closed_frame (hp w) _ s (wB _ I s Hs) (stored_region_stable w e s I Hs)). }
  pose proof (wA _ I) as A. pose proof (wC _ I) as O. pose proof (wE _ I) as B. unfold bound in A, B.
  destruct e as [|mu| | |labels verb|i]; cbn [wstep] in *.
  - (* EBegin *)
    destruct (cur w) as [ws|]; [exact I|].
    destruct (clone_snap (hp w) (pub w)) as [h s] eqn:E.
    destruct (clone_spec _ _ _ _ (pub_closed w I) E) as (O' & _ & L).
    constructor; [exact A | exact STB | exact O' | exact (wD _ I) | exact L | exact (wF _ I)].
  - (* EMut *)
    destruct (cur w) as [ws|]; [|exact I].
    destruct (apply_mut (hp w) (wsnap ws) mu) as [[h s] wl] eqn:E.
    destruct (apply_mut_spec _ _ _ _ _ _ _ O E) as (O' & _ & _ & L).
    constructor; [exact A | exact STB | exact O' | exact (wD _ I) | exact (Nat.le_trans _ _ _ B L) | exact (wF _ I)].
  - (* EStore *)
    destruct (cur w) as [ws|]; [|exact I].
    constructor; [| |exact Logic.I|reflexivity|apply le_n|].
    + intros s0 [<-|Hs] l Hl; [apply (proj1 O l Hl)|]. exact (Nat.lt_le_trans _ _ _ (A s0 Hs l Hl) B).
    + intros s0 [<-|Hs]; [apply O|apply (wB _ I s0 Hs)].
    + eapply Forall_impl; [|apply (wF _ I)]. intros r. apply reader_ok_stored. intros s0 Hs. right; exact Hs.
  - (* EAbort *)
    constructor; [|exact STB|exact Logic.I|exact (wD _ I)|apply le_n|exact (wF _ I)].
    intros s0 Hs l Hl. destruct (cur w); [exact (Nat.lt_le_trans _ _ _ (A s0 Hs l Hl) B)|exact (A s0 Hs l Hl)].
  - (* ELoad *)
    constructor; cbn [hp pub stored cur readers]; try apply I.
    apply Forall_app. split; [apply (wF _ I)|]. constructor; [|constructor].
    destruct (pub w) as [s|] eqn:P; [|exact Logic.I]. pose proof (pub_stored w s I P) as Hs.
    split; [exact Hs|apply (wB _ I s Hs)].
  - (* ERead *)
    constructor; cbn [hp pub stored cur readers]; try apply I.
    apply Forall_upd; [apply (wF _ I)|]. intros r. apply rstep_ok. apply (wB _ I).
Qed.

Lemma exec_WI es : forall w, WI w -> WI (exec w es).
Proof. induction es as [|e es IH]; intros w I; cbn [exec]; [exact I|]. apply IH. apply wstep_WI. exact I. Qed.

Lemma published_immutable es e l s : let w := exec world0 es in
  In l (writes_of w e) -> In s (stored w) -> ~ In l (footprint s).
Proof.
  intros w Hl Hs Q. pose proof (exec_WI es world0 WI0) as I. fold w in I.
  pose proof (proj2 (wstep_frame w e I) l Hl). pose proof (wA _ I s Hs l Q). lia.
Qed.
Lemma writes_complete es e x : let w := exec world0 es in
  ~ In x (writes_of w e) -> cell_at (hp (wstep w e)) x = cell_at (hp w) x.
Proof. intros w. apply (proj1 (wstep_frame w e (exec_WI es world0 WI0))). Qed.

Lemma snapshot_content_fixed es' : forall w s x, WI w -> In s (stored w) -> In x (footprint s) ->
  cell_at (hp (exec w es')) x = cell_at (hp w) x.
Proof.
  induction es' as [|e es' IH]; intros w s x I Hs Hx; cbn [exec]; [reflexivity|].
  rewrite (IH (wstep w e) s x); [|apply wstep_WI; exact I|apply stored_mono; exact Hs|exact Hx].
  apply (stored_cells_stable w e s I Hs x Hx).
Qed.

Lemma finish_ext h h' s : closed h s -> (forall x, In x (sregion s) -> cell_at h' x = cell_at h x) ->
  forall rest l verb, In l (sregion s) -> finish h' l rest verb = finish h l rest verb.
Proof.
  intros [R C] F. induction rest as [|lab rest IH]; intros l verb Hl; cbn [finish]; unfold node_at; rewrite (F l Hl); [reflexivity|].
  fold (node_at h l). destruct (aget lab (nkids (node_at h l))) as [p|] eqn:K; [|reflexivity].
  apply IH. exact (child_in_region h _ l lab p C Hl K).
Qed.
(* a search through a stored snapshot is not disturbed by any event *)
Lemma finish_stable w e s : WI w -> In s (stored w) -> forall rest l verb, In l (sregion s) ->
  finish (hp (wstep w e)) l rest verb = finish (hp w) l rest verb.
Proof. intros I Hs. exact (finish_ext (hp w) _ s (wB _ I s Hs) (stored_region_stable w e s I Hs)). Qed.

Definition answer (h : heap) (r : rstate) : option method :=
  match r with RWalk _ l rest verb => finish h l rest verb | RDone res => res end.
Lemma answer_rstep h r : answer h (rstep h r) = answer h r.
Proof.
  destruct r as [s l rest verb|res]; [|reflexivity]. destruct rest as [|lab rest]; cbn [rstep answer finish]; [reflexivity|].
  destruct (aget lab (nkids (node_at h l))); reflexivity.
Qed.
Lemma nth_upd {A} (f : A -> A) l d : forall i j, i < length l ->
  nth i (upd j f l) d = if i =? j then f (nth i l d) else nth i l d.
Proof.
  induction l as [|a l IH]; intros i j Hi; cbn [length] in Hi; [lia|].
  destruct j, i; cbn [upd nth Nat.eqb]; try reflexivity. apply IH. lia.
Qed.
Lemma upd_length {A} (f : A -> A) l : forall i, length (upd i f l) = length l.
Proof. induction l as [|a l IH]; intro i; destruct i; cbn [upd length]; auto. Qed.
Lemma readers_mono w e : length (readers w) <= length (readers (wstep w e)).
Proof. rewrite (proj2 (proj2 (wstep_proj w e))). destruct e; rewrite ?app_length, ?upd_length; lia. Qed.

Lemma answer_stable w e i d : WI w -> i < length (readers w) ->
  answer (hp (wstep w e)) (nth i (readers (wstep w e)) d) = answer (hp w) (nth i (readers w) d).
Proof.
  intros I Hi.
  assert (HEAP : forall r, reader_ok w r -> answer (hp (wstep w e)) r = answer (hp w) r).
  { intros [s l rest verb|res] O; [|reflexivity]. destruct O as [Hs Hl]. exact (finish_stable w e s I Hs rest l verb Hl). }
  pose proof (proj1 (Forall_forall _ _) (wF _ I) _ (nth_In _ d Hi)) as O.
  rewrite (proj2 (proj2 (wstep_proj w e))). destruct e as [|mu| | |labels verb|j]; try exact (HEAP _ O).
  - rewrite app_nth1 by exact Hi. exact (HEAP _ O).
  - rewrite nth_upd by exact Hi. destruct (i =? j); [apply answer_rstep|reflexivity].
Qed.

Lemma answer_exec es : forall w i d, WI w -> i < length (readers w) ->
  answer (hp (exec w es)) (nth i (readers (exec w es)) d) = answer (hp w) (nth i (readers w) d).
Proof.
  induction es as [|e es IH]; intros w i d I Hi; cbn [exec]; [reflexivity|].
  rewrite IH; [apply answer_stable; assumption|apply wstep_WI; exact I|].
  pose proof (readers_mono w e). lia.
Qed.

(* under every interleaving: the request that loads after es1 gets the route of the snapshot that
   was published at that moment (the newest stored one), evaluated as if atomically at its load *)
Lemma linearizable es1 labels verb es2 :
  let w1 := exec world0 es1 in
  let w2 := exec (wstep w1 (ELoad labels verb)) es2 in
  answer (hp w2) (nth (length (readers w1)) (readers w2) (RDone None)) = route_snap (hp w1) (pub w1) labels verb /\
  pub w1 = match stored w1 with [] => None | s :: _ => Some s end.
Proof.
  intros w1 w2. pose proof (exec_WI es1 world0 WI0) as I. fold w1 in I. split; [|apply (wD _ I)].
  unfold w2. rewrite answer_exec.
  - cbn [wstep hp readers]. rewrite app_nth2 by lia. rewrite Nat.sub_diag. cbn [nth].
    unfold route_snap. destruct (pub w1); reflexivity.
  - apply wstep_WI. exact I.
  - cbn [wstep readers]. rewrite app_length. cbn. lia.
Qed.

Lemma only_store_publishes w e : pub (wstep w e) <> pub w -> e = EStore.
Proof. rewrite (proj1 (proj2 (wstep_proj w e))). destruct e, (cur w); congruence. Qed.

Lemma invisible_until_store es' : forall w, WI w -> ~ In EStore es' ->
  pub (exec w es') = pub w /\ stored (exec w es') = stored w /\
  forall labels verb, route_snap (hp (exec w es')) (pub w) labels verb = route_snap (hp w) (pub w) labels verb.
Proof.
  induction es' as [|e es' IH]; intros w I N; cbn [exec]; [auto|].
  assert (SP : stored (wstep w e) = stored w /\ pub (wstep w e) = pub w).
  { destruct (wstep_proj w e) as (-> & -> & _). destruct e; try (split; reflexivity). destruct N. left; reflexivity. }
  destruct SP as [S P].
  destruct (IH (wstep w e) (wstep_WI w e I)) as (A & B & C). { intro Q. apply N. right; exact Q. }
  split; [congruence|]. split; [congruence|]. intros labels verb. rewrite <- P, C, P.
  unfold route_snap. destruct (pub w) as [s|] eqn:Pw; [|reflexivity].
  pose proof (pub_stored w s I Pw) as Hs. exact (finish_stable w e s I Hs labels _ verb (proj1 (wB _ I s Hs))).
Qed.
