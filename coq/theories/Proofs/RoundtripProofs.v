(* C03: the parameters and the body rebuild the message (singular fields; any order of the keys). *)
From Larking Require Import Base.GoSem Model.Schema Model.Params Model.Transcode Proofs.ParamsProofs.
Local Open Scope N_scope.

(* a field path params.set can walk: singular message fields, then a field that is not a map *)
Fixpoint walkable (fds : list step) : bool :=
  match fds with
  | [] => false
  | st :: rest =>
    match rest with
    | [] => match f_card (snd st) with MapField => false | _ => true end
    | _ => match f_card (snd st), field_msg (snd st) with Singular, Some _ => walkable rest | _, _ => false end
    end
  end.

Lemma set_walk_t : forall fds pp v M, walkable fds = true -> set_walk fds pp v M = Ok (walk_t fds pp v M).
Proof.
  induction fds as [|st [|st2 rest] IH]; intros pp v M W; [discriminate| |]; cbn [walkable set_walk walk_t] in *;
    destruct (f_card (snd st)); try discriminate; try reflexivity.
  destruct (field_msg (snd st)); try discriminate. apply IH. exact W.
Qed.
Lemma params_set_t : forall ps M, (forall p, In p ps -> walkable (fst p) = true) ->
  params_set ps M = Ok (apply_t ps M).
Proof.
  induction ps as [|p ps IH]; intros M W; [reflexivity|].
  cbn [params_set]. unfold set_param. rewrite (set_walk_t (fst p) [] (snd p) M (W p (or_introl eq_refl))).
  apply IH. intros x Hx. apply W. now right.
Qed.
Lemma walkable_ne fds : walkable fds = true -> fds <> [].
Proof. intros W ->. discriminate. Qed.

Lemma untouched_prefix : forall fds p r, untouched fds (p ++ r) = true ->
  p = [] \/ untouched fds p = true \/ (exists r', r' <> [] /\ steps_path fds = p ++ r').
Proof.
  induction fds as [|st rest IH]; intros p r U.
  - right. left. reflexivity.
  - destruct p as [|n p']; [left; reflexivity|]. right. cbn [app untouched] in U. cbn [untouched].
    destruct (n =? step_num st) eqn:E.
    + apply N.eqb_eq in E. subst n. destruct rest as [|st2 rest2]; [discriminate|].
      destruct (IH p' r U) as [->|[H|[r' [Hr' H]]]].
      * right. exists (steps_path (st2 :: rest2)). split; [discriminate|reflexivity].
      * left. exact H.
      * right. exists r'. split; [exact Hr'|]. cbn [steps_path map] in *. rewrite H. reflexivity.
    + left. exact U.
Qed.

Section Rebuild.
Variable leaves : list param.
Hypothesis shape : forall p, In p leaves -> fst p <> [] /\ singular_last (fst p).
Hypothesis indep : forall i j pi pj, i <> j -> nth_error leaves i = Some pi -> nth_error leaves j = Some pj ->
  untouched (fst pj) (steps_path (fst pi)) = true.

Lemma nth_after {A} (pre post : list A) x y : In y post -> exists j, j <> length pre /\ nth_error (pre ++ x :: post) j = Some y.
Proof.
  intros H. apply In_nth_error in H. destruct H as [k H]. exists (length pre + S k)%nat. split; [lia|].
  rewrite nth_error_app2 by lia. replace (length pre + S k - length pre)%nat with (S k) by lia. exact H.
Qed.
Lemma nth_before {A} (pre post : list A) x y : In y pre -> exists j, j <> length pre /\ nth_error (pre ++ x :: post) j = Some y.
Proof.
  intros H. apply In_nth_error in H. destruct H as [k H]. exists k.
  assert (k < length pre)%nat by (apply nth_error_Some; congruence). split; [lia|].
  rewrite nth_error_app1 by lia. exact H.
Qed.
Lemma nth_mid {A} (pre post : list A) x : nth_error (pre ++ x :: post) (length pre) = Some x.
Proof. rewrite nth_error_app2 by lia. rewrite Nat.sub_diag. reflexivity. Qed.

Lemma parents_persist : forall post M p r,
  p <> [] ->
  (forall x, In x post -> untouched (fst x) (p ++ r) = true) ->
  lookup p M = Some EPresent -> lookup p (apply_t post M) = Some EPresent.
Proof.
  induction post as [|x post IH]; intros M p r Hp U L; [exact L|].
  rewrite apply_t_cons. apply (IH _ p r Hp); [intros y Hy; apply U; now right|].
  destruct (untouched_prefix (fst x) p r (U x (or_introl eq_refl))) as [->|[Hu|[r' [Hr' Hs]]]].
  - contradiction.
  - rewrite <- L. exact (walk_t_untouched (fst x) [] (snd x) M p Hu).
  - exact (walk_t_parents (fst x) [] (snd x) M p r' Hs Hp Hr').
Qed.

Theorem rebuild : forall M0 M', params_set leaves M0 = Ok M' ->
  (forall i fds v rel, nth_error leaves i = Some (fds, v) ->
     lookup (steps_path fds ++ rel) M' = lookup rel (field_image (snd (last_step fds)) v)) /\
  (forall i fds v p r, nth_error leaves i = Some (fds, v) -> steps_path fds = p ++ r -> p <> [] -> r <> [] ->
     lookup p M' = Some EPresent) /\
  (forall q, (forall p, In p leaves -> untouched (fst p) q = true) -> lookup q M' = lookup q M0).
Proof.
  intros M0 M' H. apply params_set_apply_t in H. subst M'.
  assert (after : forall i x pre post, nth_error leaves i = Some x -> leaves = pre ++ x :: post -> length pre = i ->
            forall y, In y post -> untouched (fst y) (steps_path (fst x)) = true).
  { intros i x pre post Hn El Hl y Hy. destruct (nth_after pre post x y Hy) as [j [Hj Hnj]]. rewrite <- El in Hnj.
    apply (indep i j x y); auto. lia. }
  split; [|split].
  - intros i fds v rel Hn. destruct (nth_error_split leaves i Hn) as [pre [post [El Hl]]].
    destruct (shape (fds, v)) as [Hne Hs]; [eapply nth_error_In; eauto|].
    rewrite El. apply apply_t_wins; [exact Hne|exact Hs|exact (after i _ pre post Hn El Hl)].
  - intros i fds v p r Hn Es Hp Hr. destruct (nth_error_split leaves i Hn) as [pre [post [El Hl]]].
    rewrite El, apply_t_app, apply_t_cons. apply (parents_persist post _ p r Hp).
    + rewrite <- Es. exact (after i _ pre post Hn El Hl).
    + exact (walk_t_parents fds [] v _ p r Es Hp Hr).
  - intros q U. apply apply_t_untouched. exact U.
Qed.
End Rebuild.

Section Request.
Variable ofloat : bool -> bytes -> option N.
Variable owkt : wkt -> bool -> bytes -> option subtree.

(* one query key with one value, as the client wrote it: key, its field path, text, value *)
Definition qleaf := (bytes * list step * bytes * pval)%type.
Definition qleaf_ok (sch : schema) (root : list field) (l : qleaf) : Prop :=
  match l with (key, fds, txt, v) =>
    field_path sch root (split_dots [] key) = Some fds /\ parse_param ofloat owkt sch fds txt = Ok v end.
Definition qleaf_query (l : qleaf) : bytes * list bytes := match l with (key, _, txt, _) => (key, [txt]) end.
Definition qleaf_param (l : qleaf) : param := match l with (_, fds, _, v) => (fds, v) end.

Lemma parse_query_leaves : forall sch root ls, Forall (qleaf_ok sch root) ls ->
  parse_query ofloat owkt sch root (map qleaf_query ls) = Ok (map qleaf_param ls).
Proof.
  induction ls as [|[[[key fds] txt] v] ls IH]; intros H; [reflexivity|].
  inversion H as [|? ? Hok Hr]; subst. cbn in Hok. destruct Hok as [Hf Hp]. cbn [map qleaf_query parse_query qleaf_param].
  rewrite Hf. cbn [parse_values]. rewrite Hp. cbn [bind]. rewrite (IH Hr). reflexivity.
Qed.

(* the captures, template order: field path, text, value *)
Definition pleaf := (list step * bytes * pval)%type.
Definition pleaf_ok (sch : schema) (l : pleaf) : Prop :=
  match l with (fds, txt, v) => fds <> [] /\ parse_param ofloat owkt sch fds txt = Ok v end.
Lemma path_params_leaves : forall sch (ls : list pleaf), Forall (pleaf_ok sch) ls ->
  path_params ofloat owkt sch (map (fun l => (fst (fst l), snd (fst l))) ls) =
  Ok (rev (map (fun l => (fst (fst l), snd l)) ls)).
Proof.
  induction ls as [|[[fds txt] v] ls IH]; intros H; [reflexivity|].
  inversion H as [|? ? Hok Hr]; subst. cbn in Hok. destruct Hok as [Hne Hp]. cbn [map fst snd path_params rev].
  rewrite (IH Hr). cbn [bind]. destruct fds as [|s f]; [contradiction|]. rewrite Hp. reflexivity.
Qed.
End Request.

Section RoundTrip.
Variable ofloat : bool -> bytes -> option N.
Variable owkt : wkt -> bool -> bytes -> option subtree.
(* the body codec and the compressor: opaque inverse pairs *)
Variable marshal : nat -> nat -> subtree -> bytes.
Variable unmarshal : nat -> nat -> bytes -> option subtree.
Hypothesis codec_inverse : forall c ty t, unmarshal c ty (marshal c ty t) = Some t.
Variable deflate : bytes -> bytes.
Variable inflate : bytes -> option bytes.
Hypothesis gzip_inverse : forall b, inflate (deflate b) = Some b.

(* where the body part of the message sits before the parameters are applied *)
Definition body_image (r : rule) (body : option subtree) : outcome msg :=
  match r_body r, body with
  | BStar, Some t => Ok ([] ++ graft [] t)
  | BField fds, Some t => do W <- body_walk fds [] []; Ok (W ++ graft (steps_path fds) t)
  | _, _ => Ok []
  end.

Definition split_request (sch : schema) (r : rule) (pls : list pleaf) (qls : list qleaf)
           (body : option subtree) (codec : nat) (gz : bool) : request :=
  mkReq (map (fun l => snd (fst l)) pls) (map qleaf_query qls)
        (option_map (fun t => let b := marshal codec (body_type sch r) t in if gz then deflate b else b) body)
        (Some codec) gz.

Definition split_leaves (pls : list pleaf) (qls : list qleaf) : list param :=
  map qleaf_param qls ++ rev (map (fun l => (fst (fst l), snd l)) pls).

Lemma combine_pleaves (pls : list pleaf) :
  combine (map (fun l => fst (fst l)) pls) (map (fun l => snd (fst l)) pls) =
  map (fun l => (fst (fst l), snd (fst l))) pls.
Proof. induction pls as [|l pls IH]; cbn; [reflexivity|rewrite IH; reflexivity]. Qed.

Lemma decode_request_built sch r (pls : list pleaf) query qs body codec (gz : bool) M0 :
  r_vars r = map (fun l => fst (fst l)) pls ->
  Forall (pleaf_ok ofloat owkt sch) pls ->
  parse_query ofloat owkt sch (msg_fields sch (r_input r)) query = Ok qs ->
  (r_body r = BNone -> body = None) -> body_image r body = Ok M0 ->
  decode_request ofloat owkt unmarshal inflate sch r
    (mkReq (map (fun l => snd (fst l)) pls) query
       (option_map (fun t => let b := marshal codec (body_type sch r) t in if gz then deflate b else b) body) (Some codec) gz)
  = params_set (qs ++ rev (map (fun l => (fst (fst l), snd l)) pls)) M0.
Proof.
  intros Hv Hp Hq Hnone Hb. unfold decode_request, recv_first. cbn [q_caps q_query q_body q_codec q_gzip].
  rewrite Hv, combine_pleaves, (path_params_leaves ofloat owkt sch pls Hp), Hq. cbn [bind].
  unfold body_image in Hb.
  destruct body as [t|]; cbn [option_map].
  - set (raw := marshal codec (body_type sch r) t).
    assert (Einf : (if gz then inflate (if gz then deflate raw else raw) else Some (if gz then deflate raw else raw)) = Some raw).
    { destruct gz; [apply gzip_inverse|reflexivity]. }
    replace (if gz then inflate _ else Some []) with (Some (if gz then raw else [])).
    2:{ destruct gz; [rewrite gzip_inverse|]; reflexivity. }
    destruct (r_body r) as [| |fds]; [discriminate (Hnone eq_refl)| |]; unfold decode_body; cbn [q_codec q_gzip].
    + cbn [body_walk bind steps_path map]. rewrite Einf. unfold raw. rewrite codec_inverse, Hb. reflexivity.
    + destruct (body_walk fds [] []); cbn [bind] in *; try discriminate.
      rewrite Einf. unfold raw. rewrite codec_inverse, Hb. reflexivity.
  - destruct gz; destruct (r_body r); rewrite Hb; reflexivity.
Qed.

Theorem roundtrip : forall sch r pls qls body codec gz M0,
  r_vars r = map (fun l => fst (fst l)) pls ->
  Forall (pleaf_ok ofloat owkt sch) pls ->
  Forall (qleaf_ok ofloat owkt sch (msg_fields sch (r_input r))) qls ->
  (forall p, In p (split_leaves pls qls) -> walkable (fst p) = true /\ singular_last (fst p)) ->
  (forall i j pi pj, i <> j -> nth_error (split_leaves pls qls) i = Some pi -> nth_error (split_leaves pls qls) j = Some pj ->
     untouched (fst pj) (steps_path (fst pi)) = true) ->
  (r_body r = BNone -> body = None) ->
  body_image r body = Ok M0 ->
  exists M', decode_request ofloat owkt unmarshal inflate sch r (split_request sch r pls qls body codec gz) = Ok M' /\
    (forall i fds v rel, nth_error (split_leaves pls qls) i = Some (fds, v) ->
       lookup (steps_path fds ++ rel) M' = lookup rel (field_image (snd (last_step fds)) v)) /\
    (forall i fds v p q, nth_error (split_leaves pls qls) i = Some (fds, v) -> steps_path fds = p ++ q -> p <> [] -> q <> [] ->
       lookup p M' = Some EPresent) /\
    (forall q, (forall p, In p (split_leaves pls qls) -> untouched (fst p) q = true) -> lookup q M' = lookup q M0).
Proof.
  intros sch r pls qls body codec gz M0 Hv Hp Hq Hshape Hind Hnone Hb.
  exists (apply_t (split_leaves pls qls) M0). split.
  - etransitivity; [exact (decode_request_built sch r pls _ _ body codec gz M0 Hv Hp (parse_query_leaves ofloat owkt sch _ qls Hq) Hnone Hb)|].
    apply params_set_t. intros p Hp'. apply Hshape. exact Hp'.
  - apply (rebuild (split_leaves pls qls)); auto.
    + intros p Hp'. destruct (Hshape p Hp') as [W S]. split; [apply walkable_ne; exact W|exact S].
    + apply params_set_t. intros p Hp'. apply Hshape. exact Hp'.
Qed.
End RoundTrip.
