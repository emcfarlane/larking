(* Lemmas about the flattened message representation, params.set and the parameter order of
   serveHTTP (C07). *)
From Larking Require Import Base.GoSem Model.Schema Model.Params Model.Transcode.
Local Open Scope N_scope.

Lemma path_eqb_eq p q : path_eqb p q = true <-> p = q.
Proof. apply list_eqb_eq. intros; apply N.eqb_eq. Qed.
Lemma path_eqb_refl p : path_eqb p p = true.
Proof. exact (eqb_refl_of _ path_eqb_eq p). Qed.
Lemma path_eqb_neq p q : p <> q -> path_eqb p q = false.
Proof. apply (eqb_neq_of _ path_eqb_eq). Qed.

Lemma app_cons_assoc {A} (l : list A) x r : (l ++ [x]) ++ r = l ++ x :: r.
Proof. rewrite <- app_assoc. reflexivity. Qed.

Lemma nth_error_combine {A B} : forall (l : list A) (l' : list B) i a b,
  nth_error (combine l l') i = Some (a, b) <-> nth_error l i = Some a /\ nth_error l' i = Some b.
Proof.
  induction l as [|x l IH]; intros [|y l'] [|i] a b; cbn [combine nth_error];
    try (split; [discriminate|intros [H1 H2]; discriminate]).
  - split; [intros H; inversion H; auto|intros [H1 H2]; congruence].
  - apply IH.
Qed.

Lemma Forall2_In_r {A B} (R : A -> B -> Prop) l l' y : Forall2 R l l' -> In y l' -> exists x, In x l /\ R x y.
Proof.
  induction 1 as [|a b l l' H _ IH]; intros Hi; [destruct Hi|].
  destruct Hi as [<-|Hi]; [exists a; split; [now left|exact H]|].
  destruct (IH Hi) as (x & Hx & HR). exists x. split; [now right|exact HR].
Qed.

(* l is filtered and reversed, then related elementwise to ps: the image of the i-th element of l is
   followed in ps only by images of earlier elements *)
Lemma Forall2_rev_filter_nth {A B} (R : A -> B -> Prop) (f : A -> bool) (l : list A) ps i x :
  Forall2 R (rev (filter f l)) ps -> nth_error l i = Some x -> f x = true ->
  exists pre y post, ps = pre ++ y :: post /\ R x y /\
    forall p, In p post -> exists j xj, (j < i)%nat /\ nth_error l j = Some xj /\ f xj = true /\ R xj p.
Proof.
  intros HF Hn Hx. destruct (nth_error_split _ _ Hn) as (l1 & l2 & -> & <-).
  rewrite filter_app in HF. cbn [filter] in HF. rewrite Hx, rev_app_distr in HF. cbn [rev] in HF.
  rewrite <- app_assoc in HF. cbn [app] in HF.
  apply Forall2_app_inv_l in HF. destruct HF as (pre & q & F1 & F2 & ->).
  inversion F2 as [|x0 y l0 post Hxy F3]; subst. exists pre, y, post. split; [reflexivity|]. split; [exact Hxy|].
  intros p Hp. destruct (Forall2_In_r _ _ _ _ F3 Hp) as (xj & Hin & HR).
  apply in_rev, filter_In in Hin. destruct Hin as [Hin Hf]. apply In_nth_error in Hin. destruct Hin as [j Hj].
  assert (Hlt : (j < length l1)%nat) by (apply nth_error_Some; congruence).
  exists j, xj. split; [exact Hlt|]. split; [|auto]. now rewrite nth_error_app1.
Qed.

Lemma is_prefix_app p r : is_prefix p (p ++ r) = true.
Proof. induction p as [|a p IH]; cbn; auto. rewrite N.eqb_refl. exact IH. Qed.
Lemma is_prefix_spec p q : is_prefix p q = true <-> exists r, q = p ++ r.
Proof. revert p q. apply (prefix_test_spec N.eqb _ N.eqb_eq); reflexivity. Qed.
Lemma is_prefix_trans p q r : is_prefix p q = true -> is_prefix q r = true -> is_prefix p r = true.
Proof.
  rewrite !is_prefix_spec. intros [a ->] [b ->]. exists (a ++ b). now rewrite app_assoc.
Qed.
Lemma is_prefix_app_l p q r : is_prefix p r = false -> is_prefix (p ++ q) r = false.
Proof.
  intros H. destruct (is_prefix (p ++ q) r) eqn:E; [|reflexivity].
  rewrite (is_prefix_trans p (p ++ q) r (is_prefix_app p q) E) in H. discriminate.
Qed.
Lemma is_prefix_longer pp x : is_prefix (pp ++ [x]) pp = false.
Proof. induction pp as [|a pp IH]; cbn; auto. rewrite N.eqb_refl. exact IH. Qed.
Lemma is_prefix_snoc pp m n q : is_prefix (pp ++ [m]) (pp ++ n :: q) = (m =? n).
Proof.
  induction pp as [|a pp IH]; cbn.
  - destruct (m =? n); reflexivity.
  - rewrite N.eqb_refl. exact IH.
Qed.

Lemma path_neq_of_not_prefix p q : is_prefix p q = false -> path_eqb q p = false.
Proof.
  intros H. apply path_eqb_neq. intros ->. rewrite <- (app_nil_r p) in H at 2. rewrite is_prefix_app in H. discriminate.
Qed.
Lemma path_eqb_longer p a r : path_eqb (p ++ a :: r) p = false.
Proof.
  apply path_eqb_neq. intros E. rewrite <- (app_nil_r p) in E at 2. apply app_inv_head in E. discriminate.
Qed.

Lemma lookup_filter (f : path -> bool) p M :
  lookup p (filter (fun qe => f (fst qe)) M) = if f p then lookup p M else None.
Proof.
  induction M as [|[q e] M IH]; cbn [filter lookup fst].
  - destruct (f p); reflexivity.
  - destruct (f q) eqn:Fq; cbn [lookup].
    + destruct (path_eqb p q) eqn:E.
      * apply path_eqb_eq in E. subst. rewrite Fq. reflexivity.
      * exact IH.
    + destruct (path_eqb p q) eqn:E.
      * apply path_eqb_eq in E. subst. rewrite Fq in *. rewrite IH. reflexivity.
      * exact IH.
Qed.

Lemma lookup_remove_under p q M :
  lookup p (remove_under q M) = if is_prefix q p then None else lookup p M.
Proof.
  unfold remove_under. rewrite (lookup_filter (fun x => negb (is_prefix q x))).
  destruct (is_prefix q p); reflexivity.
Qed.
Lemma lookup_put p q e M :
  lookup p (put q e M) = if path_eqb p q then Some e else lookup p M.
Proof.
  unfold put. cbn [lookup]. destruct (path_eqb p q) eqn:E; auto.
  rewrite (lookup_filter (fun x => negb (path_eqb q x))).
  destruct (path_eqb q p) eqn:E2; auto.
  apply path_eqb_eq in E2. subst. rewrite path_eqb_refl in E. discriminate.
Qed.
Lemma lookup_put_at p r e M :
  lookup (p ++ r) (put p e M) = match r with [] => Some e | _ => lookup (p ++ r) M end.
Proof.
  rewrite lookup_put. destruct r as [|a r].
  - rewrite app_nil_r, path_eqb_refl. reflexivity.
  - rewrite path_eqb_longer. reflexivity.
Qed.
Lemma lookup_app p A B :
  lookup p (A ++ B) = match lookup p A with Some e => Some e | None => lookup p B end.
Proof.
  induction A as [|[q e] A IH]; cbn; auto. destruct (path_eqb p q); auto.
Qed.
Lemma lookup_graft_in p r t : lookup (p ++ r) (graft p t) = lookup r t.
Proof.
  induction t as [|[q e] t IH]; cbn; auto.
  destruct (path_eqb r q) eqn:E.
  - apply path_eqb_eq in E. subst. rewrite path_eqb_refl. reflexivity.
  - rewrite path_eqb_neq; auto. intros H. apply app_inv_head in H. subst. rewrite path_eqb_refl in E. discriminate.
Qed.
Lemma lookup_graft_out p q t : is_prefix p q = false -> lookup q (graft p t) = None.
Proof.
  intros H. induction t as [|[x e] t IH]; cbn; auto.
  rewrite path_eqb_neq; auto. intros ->. rewrite is_prefix_app in H. discriminate.
Qed.

(* q lies at or under a oneof sibling of st, for st taken at parent path pp *)
Definition in_sibs (st : step) (pp q : path) : bool :=
  existsb (fun n => is_prefix (pp ++ [n]) q) (sibs (fst st) (snd st)).

Lemma lookup_clear_sibs st pp p M :
  lookup p (clear_sibs (fst st) (snd st) pp M) = if in_sibs st pp p then None else lookup p M.
Proof.
  unfold clear_sibs, in_sibs. revert M.
  induction (sibs (fst st) (snd st)) as [|n ns IH]; intros M; cbn [fold_left existsb]; auto.
  rewrite IH, lookup_remove_under.
  destruct (is_prefix (pp ++ [n]) p); cbn [orb]; [destruct (existsb _ ns)|]; reflexivity.
Qed.

Lemma in_sibs_snoc st pp n q : in_sibs st pp (pp ++ n :: q) = existsb (N.eqb n) (sibs (fst st) (snd st)).
Proof.
  unfold in_sibs. induction (sibs (fst st) (snd st)) as [|m ns IH]; cbn; auto.
  rewrite is_prefix_snoc, IH, (N.eqb_sym m n). reflexivity.
Qed.
Lemma sibs_not_self pf fd : existsb (N.eqb (f_num fd)) (sibs pf fd) = false.
Proof.
  unfold sibs. induction pf as [|g pf IH]; cbn; auto.
  destruct (same_oneof fd g && negb (f_num g =? f_num fd)) eqn:E; cbn; auto.
  rewrite IH. apply andb_true_iff in E. destruct E as [_ E].
  rewrite (N.eqb_sym (f_num fd)). destruct (f_num g =? f_num fd); cbn in *; auto; discriminate.
Qed.
Lemma sib_not_self pf fd s : In s (sibs pf fd) -> (f_num fd =? s) = false.
Proof.
  intros H. apply not_true_is_false. intros E. apply N.eqb_eq in E. subst s.
  apply existsb_eqb_In in H. rewrite sibs_not_self in H. discriminate.
Qed.
Lemma in_sibs_self st pp r : in_sibs st pp ((pp ++ [step_num st]) ++ r) = false.
Proof. rewrite app_cons_assoc, in_sibs_snoc. apply sibs_not_self. Qed.
Lemma in_sibs_none st pp q : (forall n, is_prefix (pp ++ [n]) q = false) -> in_sibs st pp q = false.
Proof.
  intros H. unfold in_sibs. induction (sibs (fst st) (snd st)) as [|x l IH]; cbn [existsb]; [reflexivity|].
  rewrite H. exact IH.
Qed.
Lemma in_sibs_off st p q : is_prefix p q = false -> in_sibs st p q = false.
Proof. intros H. apply in_sibs_none. intros n. apply is_prefix_app_l, H. Qed.
Lemma in_sibs_longer st p : in_sibs st p p = false.
Proof. apply in_sibs_none. intros n. apply is_prefix_longer. Qed.

(* the image of a value at its field: entries relative to the field's path *)
Definition field_image (fd : field) (v : pval) : subtree :=
  match v with
  | PScalar s => if negb (f_pres fd) && is_default s then [] else [([], ELeaf s)]
  | PMsg t => ([], EPresent) :: t
  end.

Definition last_step (fds : list step) : step := last fds ([], mkField 0 [] [] KBool Singular None false).
Definition singular_last (fds : list step) : Prop := f_card (snd (last_step fds)) = Singular.

Lemma lookup_set_field st pp v M r :
  lookup ((pp ++ [step_num st]) ++ r) (set_field st pp v M) = lookup r (field_image (snd st) v).
Proof.
  unfold set_field. fold (step_num st). set (p := pp ++ [step_num st]).
  assert (H1 : lookup (p ++ r) (remove_under p (clear_sibs (fst st) (snd st) pp M)) = None).
  { rewrite lookup_remove_under, is_prefix_app. reflexivity. }
  destruct v as [s|t]; cbn [field_image].
  - destruct (negb (f_pres (snd st)) && is_default s); [exact H1|].
    rewrite lookup_put_at, H1. destruct r; reflexivity.
  - rewrite lookup_app, lookup_put_at, H1, lookup_graft_in. destruct r; reflexivity.
Qed.

Lemma lookup_set_field_outside st pp v M q :
  is_prefix (pp ++ [step_num st]) q = false ->
  lookup q (set_field st pp v M) = if in_sibs st pp q then None else lookup q M.
Proof.
  intros H. unfold set_field. fold (step_num st).
  assert (R : lookup q (remove_under (pp ++ [step_num st]) (clear_sibs (fst st) (snd st) pp M)) =
              if in_sibs st pp q then None else lookup q M).
  { rewrite lookup_remove_under, H. apply lookup_clear_sibs. }
  destruct v as [s|t].
  - destruct (negb (f_pres (snd st)) && is_default s); [exact R|].
    rewrite lookup_put, (path_neq_of_not_prefix _ _ H). exact R.
  - rewrite lookup_app, lookup_put, (path_neq_of_not_prefix _ _ H), R, lookup_graft_out by exact H.
    destruct (in_sibs st pp q); [reflexivity|]. destruct (lookup q M); reflexivity.
Qed.

Lemma lookup_append_field st pp v M q :
  lookup q (append_field st pp v M) =
  if path_eqb q (pp ++ [step_num st])
  then Some (EList (match lookup (pp ++ [step_num st]) M with Some (EList l) => l | _ => [] end ++ [item_of v]))
  else lookup q M.
Proof. unfold append_field. destruct (lookup (pp ++ [step_num st]) M) as [[| |]|]; apply lookup_put. Qed.

(* does Mutable create the message at st (and so clear the other members of its oneof)? *)
Definition fresh (st : step) (pp : path) (M : msg) : bool :=
  match lookup (pp ++ [step_num st]) M with Some EPresent => false | _ => true end.

Lemma lookup_mutable_msg st pp M q :
  lookup q (mutable_msg st pp M) =
  if path_eqb q (pp ++ [step_num st]) then Some EPresent
  else if fresh st pp M && in_sibs st pp q then None else lookup q M.
Proof.
  unfold mutable_msg, fresh.
  destruct (lookup (pp ++ [step_num st]) M) as [[| |]|] eqn:L; cbn [andb];
    try (rewrite lookup_put, lookup_clear_sibs; reflexivity).
  destruct (path_eqb q (pp ++ [step_num st])) eqn:E; [|reflexivity].
  apply path_eqb_eq in E. subst q. exact L.
Qed.
Lemma lookup_mutable_self st pp M : lookup (pp ++ [step_num st]) (mutable_msg st pp M) = Some EPresent.
Proof. rewrite lookup_mutable_msg, path_eqb_refl. reflexivity. Qed.
Lemma lookup_mutable_below st pp M a r :
  lookup ((pp ++ [step_num st]) ++ a :: r) (mutable_msg st pp M) = lookup ((pp ++ [step_num st]) ++ a :: r) M.
Proof. rewrite lookup_mutable_msg, path_eqb_longer, in_sibs_self, andb_false_r. reflexivity. Qed.
Lemma lookup_mutable_outside st pp M q :
  is_prefix (pp ++ [step_num st]) q = false ->
  lookup q (mutable_msg st pp M) = if fresh st pp M && in_sibs st pp q then None else lookup q M.
Proof. intros H. rewrite lookup_mutable_msg, (path_neq_of_not_prefix _ _ H). reflexivity. Qed.

Lemma steps_path_snoc A st : steps_path (A ++ [st]) = steps_path A ++ [step_num st].
Proof. apply map_app. Qed.

(* params.set for one parameter without the error cases: what set_walk returns when it returns *)
Fixpoint walk_t (fds : list step) (pp : path) (v : pval) (M : msg) : msg :=
  match fds with
  | [] => M
  | st :: rest =>
    match rest with
    | [] => match f_card (snd st) with
            | Repeated => append_field st pp v M
            | _ => set_field st pp v M
            end
    | _ => walk_t rest (pp ++ [step_num st]) v (mutable_msg st pp M)
    end
  end.
Definition set_t (p : param) (M : msg) : msg := walk_t (fst p) [] (snd p) M.
Definition apply_t (ps : list param) (M : msg) : msg := fold_left (fun acc p => set_t p acc) ps M.

Lemma set_walk_walk_t : forall fds pp v M M', set_walk fds pp v M = Ok M' -> M' = walk_t fds pp v M.
Proof.
  induction fds as [|st [|st2 rest] IH]; intros pp v M M' H; cbn [set_walk walk_t] in *.
  - congruence.
  - destruct (f_card (snd st)); congruence.
  - destruct (f_card (snd st)); try discriminate. destruct (field_msg (snd st)); try discriminate.
    apply IH. exact H.
Qed.
Lemma params_set_apply_t : forall ps M M', params_set ps M = Ok M' -> M' = apply_t ps M.
Proof.
  induction ps as [|p ps IH]; intros M M' H; cbn [params_set] in H; [inversion H; reflexivity|].
  apply bind_ok in H. destruct H as [M1 [E H]]. apply set_walk_walk_t in E. subst M1. apply IH. exact H.
Qed.

Lemma apply_t_app A B M : apply_t (A ++ B) M = apply_t B (apply_t A M).
Proof. apply fold_left_app. Qed.
Lemma apply_t_cons a B M : apply_t (a :: B) M = apply_t B (set_t a M).
Proof. reflexivity. Qed.

Lemma walk_t_cons st rest pp v M : rest <> [] ->
  walk_t (st :: rest) pp v M = walk_t rest (pp ++ [step_num st]) v (mutable_msg st pp M).
Proof. intros H. destruct rest; [contradiction|reflexivity]. Qed.

(* the messages Mutable walks through (and creates) on the way down A *)
Fixpoint mutables (A : list step) (pp : path) (M : msg) : msg :=
  match A with [] => M | st :: r => mutables r (pp ++ [step_num st]) (mutable_msg st pp M) end.

Lemma walk_t_app : forall A1 A2 pp v M, A2 <> [] ->
  walk_t (A1 ++ A2) pp v M = walk_t A2 (pp ++ steps_path A1) v (mutables A1 pp M).
Proof.
  induction A1 as [|a A1 IH]; intros A2 pp v M H; cbn [app steps_path map mutables].
  - rewrite app_nil_r. reflexivity.
  - rewrite walk_t_cons by (destruct A1; [exact H|discriminate]). rewrite IH by exact H.
    rewrite app_cons_assoc. reflexivity.
Qed.
Lemma lookup_mutables_below : forall A pp M a r,
  lookup (pp ++ steps_path A ++ a :: r) (mutables A pp M) = lookup (pp ++ steps_path A ++ a :: r) M.
Proof.
  induction A as [|x A IH]; intros pp M a r; cbn [mutables steps_path map app]; [reflexivity|].
  rewrite <- app_cons_assoc. unfold steps_path in IH. rewrite IH.
  destruct (map step_num A); apply lookup_mutable_below.
Qed.

(* outside its own field an iteration only clears (or not) the oneof siblings of its first step *)
Definition clears (st : step) (rest : list step) (pp : path) (M : msg) : bool :=
  match rest with
  | [] => match f_card (snd st) with Repeated => false | _ => true end
  | _ => fresh st pp M
  end.

Lemma walk_t_outside : forall rest st pp v M q,
  is_prefix (pp ++ [step_num st]) q = false ->
  lookup q (walk_t (st :: rest) pp v M) = if clears st rest pp M && in_sibs st pp q then None else lookup q M.
Proof.
  induction rest as [|st2 rest IH]; intros st pp v M q H.
  - cbn [walk_t clears]. destruct (f_card (snd st)); try (apply lookup_set_field_outside; exact H).
    rewrite lookup_append_field, (path_neq_of_not_prefix _ _ H). reflexivity.
  - rewrite walk_t_cons, IH by (discriminate || apply is_prefix_app_l; exact H).
    rewrite (in_sibs_off st2 _ q H), andb_false_r. apply lookup_mutable_outside. exact H.
Qed.
Lemma walk_t_frame st rest pp v M q :
  is_prefix (pp ++ [step_num st]) q = false -> in_sibs st pp q = false ->
  lookup q (walk_t (st :: rest) pp v M) = lookup q M.
Proof. intros H1 H2. rewrite walk_t_outside, H2, andb_false_r by exact H1. reflexivity. Qed.

Lemma walk_t_wins fds pp v M r : fds <> [] -> singular_last fds ->
  lookup (pp ++ steps_path fds ++ r) (walk_t fds pp v M) = lookup r (field_image (snd (last_step fds)) v).
Proof.
  intros Hne Hs. destruct (exists_last Hne) as [A [st ->]]. unfold singular_last, last_step in *.
  rewrite last_last in *. rewrite walk_t_app by discriminate. cbn [walk_t]. rewrite Hs.
  rewrite steps_path_snoc, !app_assoc. apply lookup_set_field.
Qed.

Lemma walk_t_parents fds pp v M p r : steps_path fds = p ++ r -> p <> [] -> r <> [] ->
  lookup (pp ++ p) (walk_t fds pp v M) = Some EPresent.
Proof.
  intros E Hp Hr. apply map_eq_app in E. destruct E as [A1 [A2 [-> [<- <-]]]].
  destruct A2 as [|st2 A2]; [contradiction|]. rewrite walk_t_app by discriminate.
  rewrite walk_t_frame by (apply is_prefix_longer || apply in_sibs_longer).
  destruct (@exists_last _ A1) as [A [st ->]]; [intros ->; contradiction|]. clear Hp Hr.
  revert pp M. induction A as [|a A IH]; intros pp M; cbn [app mutables steps_path map].
  - apply lookup_mutable_self.
  - rewrite <- app_cons_assoc. apply IH.
Qed.

(* a path q (relative to the current message) that one iteration for fds cannot change *)
Fixpoint untouched (fds : list step) (q : path) : bool :=
  match fds with
  | [] => true
  | st :: rest =>
    match q with
    | [] => false
    | n :: q' =>
      if n =? step_num st then (match rest with [] => false | _ => untouched rest q' end)
      else negb (existsb (N.eqb n) (sibs (fst st) (snd st)))
    end
  end.

Lemma untouched_app fds : forall q r, untouched fds q = true -> untouched fds (q ++ r) = true.
Proof.
  induction fds as [|st rest IH]; intros q r H; auto.
  destruct q as [|n q']; [discriminate|]. cbn [untouched app] in *.
  destruct (n =? step_num st); auto. destruct rest; [discriminate|]. apply IH. exact H.
Qed.

Lemma untouched_under A fds q : fds <> [] -> untouched (A ++ fds) (steps_path A ++ q) = untouched fds q.
Proof.
  intros H. induction A as [|a A IH]; [reflexivity|].
  cbn [app steps_path map untouched]. fold (step_num a). rewrite N.eqb_refl, <- IH.
  destruct (A ++ fds) eqn:E; [destruct A; [contradiction|discriminate]|reflexivity].
Qed.

Lemma untouched_nested fds r : fds <> [] -> untouched fds (steps_path fds ++ r) = false.
Proof.
  intros H. destruct (exists_last H) as [A [st ->]].
  rewrite steps_path_snoc, <- app_assoc, untouched_under by discriminate.
  cbn [app untouched]. now rewrite N.eqb_refl.
Qed.

(* two spellings of one field are two leaves with one path: they touch each other *)
Lemma same_path_touch A B : A <> [] -> steps_path A = steps_path B -> untouched A (steps_path B) = false.
Proof. intros HA <-. rewrite <- (app_nil_r (steps_path A)). apply untouched_nested, HA. Qed.

(* two leaves that set, or walk through, two members of one oneof of one message touch each other:
   the result would depend on the order (Go's map order for two query keys) *)
Lemma oneof_members_touch A1 stA A2 B1 stB B2 :
  steps_path A1 = steps_path B1 ->
  In (step_num stB) (sibs (fst stA) (snd stA)) ->
  untouched (A1 ++ stA :: A2) (steps_path (B1 ++ stB :: B2)) = false.
Proof.
  intros E Hs. unfold steps_path at 1. rewrite map_app. fold (steps_path B1). rewrite <- E.
  rewrite untouched_under by discriminate. cbn [map untouched].
  rewrite N.eqb_sym. unfold step_num at 1. rewrite (sib_not_self _ _ _ Hs). apply negb_false_iff, existsb_eqb_In, Hs.
Qed.

(* A parameter for the field path fds leaves the path q alone iff q leaves fds's path at some step
   for a field that is neither that step's field nor another member of its oneof. *)
Lemma untouched_iff_diverge fds q :
  untouched fds q = true <->
  (fds = [] \/ exists A st B n q', fds = A ++ st :: B /\ q = steps_path A ++ n :: q' /\
     n <> step_num st /\ ~ In n (sibs (fst st) (snd st))).
Proof.
  split.
  - revert q. induction fds as [|st rest IH]; intros q H; [left; reflexivity|right].
    destruct q as [|n q']; [discriminate|]. cbn [untouched] in H.
    destruct (n =? step_num st) eqn:E.
    + apply N.eqb_eq in E. subst n. destruct rest as [|st2 rest2]; [discriminate|].
      destruct (IH _ H) as [H'|(A & st' & B & n & q2 & E1 & E2 & E3 & E4)]; [discriminate|].
      exists (st :: A), st', B, n, q2. rewrite E1, E2. repeat split; auto.
    + apply N.eqb_neq in E. exists [], st, rest, n, q'. repeat split; auto.
      rewrite <- existsb_eqb_In. apply negb_true_iff in H. congruence.
  - intros [->|(A & st & B & n & q' & -> & -> & E3 & E4)]; [reflexivity|].
    rewrite untouched_under by discriminate. cbn [untouched]. apply N.eqb_neq in E3. rewrite E3.
    apply negb_true_iff, not_true_is_false. rewrite existsb_eqb_In. exact E4.
Qed.

Lemma walk_t_untouched fds pp v M q :
  untouched fds q = true -> lookup (pp ++ q) (walk_t fds pp v M) = lookup (pp ++ q) M.
Proof.
  intros U. apply untouched_iff_diverge in U.
  destruct U as [->|(A & st & B & n & q' & -> & -> & E3 & E4)]; [reflexivity|].
  rewrite walk_t_app, app_assoc by discriminate. rewrite walk_t_frame.
  - rewrite <- app_assoc. apply lookup_mutables_below.
  - rewrite is_prefix_snoc. apply N.eqb_neq, not_eq_sym, E3.
  - rewrite in_sibs_snoc. apply not_true_is_false. rewrite existsb_eqb_In. exact E4.
Qed.

Lemma apply_t_untouched : forall ps M q,
  (forall p, In p ps -> untouched (fst p) q = true) -> lookup q (apply_t ps M) = lookup q M.
Proof.
  induction ps as [|p ps IH]; intros M q U; [reflexivity|].
  rewrite apply_t_cons, IH by (intros x Hx; apply U; now right).
  apply (walk_t_untouched (fst p) [] (snd p) M q). apply U. now left.
Qed.

Lemma apply_t_wins pre fds v post M r :
  fds <> [] -> singular_last fds ->
  (forall p, In p post -> untouched (fst p) (steps_path fds) = true) ->
  lookup (steps_path fds ++ r) (apply_t (pre ++ (fds, v) :: post) M) = lookup r (field_image (snd (last_step fds)) v).
Proof.
  intros Hne Hs U. rewrite apply_t_app, apply_t_cons, apply_t_untouched.
  - exact (walk_t_wins fds [] v _ r Hne Hs).
  - intros p Hp. apply untouched_app, U, Hp.
Qed.

Lemma params_set_wins : forall pre fds v post M M' r,
  fds <> [] -> singular_last fds ->
  (forall p, In p post -> untouched (fst p) (steps_path fds) = true) ->
  params_set (pre ++ (fds, v) :: post) M = Ok M' ->
  lookup (steps_path fds ++ r) M' = lookup r (field_image (snd (last_step fds)) v).
Proof.
  intros pre fds v post M M' r Hne Hs U H. rewrite (params_set_apply_t _ _ _ H).
  apply apply_t_wins; assumption.
Qed.

Lemma field_path_cons sch pf n rest A : field_path sch pf (n :: rest) = Some A ->
  exists fd A', find_field pf n = Some fd /\ A = (pf, fd) :: A' /\
    ((rest = [] /\ A' = []) \/
     (exists m, rest <> [] /\ field_msg fd = Some m /\ field_path sch (msg_fields sch m) rest = Some A')).
Proof.
  cbn [field_path]. destruct (find_field pf n) as [fd|]; [|discriminate].
  destruct rest as [|n2 rest2].
  - intros H. inversion H; subst. exists fd, []. split; [reflexivity|]. split; [reflexivity|]. left. split; reflexivity.
  - destruct (field_msg fd) as [m|] eqn:Hm; [|discriminate].
    destruct (field_path sch (msg_fields sch m) (n2 :: rest2)) as [A'|] eqn:E; [|discriminate].
    intros H. inversion H; subst. exists fd, A'. split; [reflexivity|]. split; [reflexivity|]. right.
    exists m. split; [discriminate|]. split; [exact Hm|exact E].
Qed.

Section Order.
Variable ofloat : bool -> bytes -> option N.
Variable owkt : wkt -> bool -> bytes -> option subtree.
Variable unmarshal : nat -> nat -> bytes -> option subtree.
Variable inflate : bytes -> option bytes.

(* what path.search makes of one variable and its capture *)
Definition pconv sch (vc : list step * bytes) (p : param) : Prop :=
  fst p = fst vc /\ (fst vc <> [] -> parse_param ofloat owkt sch (fst vc) (snd vc) = Ok (snd p)).

Lemma path_params_pconv sch : forall vcs ps, path_params ofloat owkt sch vcs = Ok ps -> Forall2 (pconv sch) (rev vcs) ps.
Proof.
  induction vcs as [|[f0 c0] vcs IH]; intros ps H; cbn [path_params] in H; [inversion H; constructor|].
  apply bind_ok in H. destruct H as [ps0 [E H]]. cbn [rev].
  assert (Hps : exists x, ps = ps0 ++ [(f0, x)] /\ (f0 <> [] -> parse_param ofloat owkt sch f0 c0 = Ok x)).
  { destruct f0 as [|s0 f0'].
    - inversion H; subst. eexists; split; [reflexivity|congruence].
    - destruct (parse_param ofloat owkt sch (s0 :: f0') c0) as [x| | |]; try discriminate.
      inversion H; subst. eexists; split; [reflexivity|auto]. }
  destruct Hps as [x [-> Hx]]. apply Forall2_app; [exact (IH _ E)|]. constructor; [split; [reflexivity|exact Hx]|constructor].
Qed.

(* The path parameters are applied last, innermost first: only the variables before variable i in
   the template are applied after it, so only they have to leave its field alone. *)
Lemma path_param_wins : forall sch r rq M i fds c,
  nth_error (r_vars r) i = Some fds -> fds <> [] -> nth_error (q_caps rq) i = Some c ->
  decode_request ofloat owkt unmarshal inflate sch r rq = Ok M ->
  exists v, parse_param ofloat owkt sch fds c = Ok v /\
    (singular_last fds ->
     (forall j fj, (j < i)%nat -> nth_error (r_vars r) j = Some fj -> untouched fj (steps_path fds) = true) ->
     forall rel, lookup (steps_path fds ++ rel) M = lookup rel (field_image (snd (last_step fds)) v)).
Proof.
  intros sch r rq M i fds c Hv Hne Hc H.
  unfold decode_request in H.
  destruct (path_params ofloat owkt sch (combine (r_vars r) (q_caps rq))) as [ps| | |] eqn:Ep; cbn [bind] in H; try discriminate.
  destruct (parse_query ofloat owkt sch (msg_fields sch (r_input r)) (q_query rq)) as [qs| | |]; cbn [bind] in H; try discriminate.
  destruct (if q_gzip rq then _ else _); try discriminate.
  unfold recv_first in H.
  destruct (match r_body r with BNone => _ | BStar => _ | BField _ => _ end) as [M0| | |]; cbn [bind] in H; try discriminate.
  apply path_params_pconv in Ep. rewrite <- (filter_all (fun _ => true) (combine _ _) (fun _ _ => eq_refl)) in Ep.
  destruct (Forall2_rev_filter_nth _ _ _ _ i (fds, c) Ep (proj2 (nth_error_combine _ _ _ _ _) (conj Hv Hc)) eq_refl)
    as (pre & [f v] & post & -> & [Ef Hpv] & Hpost).
  cbn [fst snd] in Ef, Hpv. subst f.
  exists v. split; [exact (Hpv Hne)|]. intros Hs Hind rel.
  rewrite app_assoc in H.
  apply (params_set_wins (qs ++ pre) fds v post M0 M rel Hne Hs); [|exact H].
  intros p Hp. destruct (Hpost p Hp) as (j & [fj cj] & Hj & Hnth & _ & [-> _]).
  exact (Hind j fj Hj (proj1 (proj1 (nth_error_combine _ _ _ _ _) Hnth))).
Qed.

(* the variables of a rule do not write into each other's fields *)
Definition vars_independent (r : rule) : Prop :=
  forall i j fi fj, i <> j -> nth_error (r_vars r) i = Some fi -> nth_error (r_vars r) j = Some fj ->
    untouched fj (steps_path fi) = true.

Theorem path_wins : forall sch r rq M i fds c,
  vars_independent r ->
  nth_error (r_vars r) i = Some fds -> fds <> [] -> singular_last fds ->
  nth_error (q_caps rq) i = Some c ->
  decode_request ofloat owkt unmarshal inflate sch r rq = Ok M ->
  exists v, parse_param ofloat owkt sch fds c = Ok v /\
    forall rel, lookup (steps_path fds ++ rel) M = lookup rel (field_image (snd (last_step fds)) v).
Proof.
  intros sch r rq M i fds c Hind Hv Hne Hs Hc H.
  destruct (path_param_wins sch r rq M i fds c Hv Hne Hc H) as [v [Hp Hw]].
  exists v. split; [exact Hp|]. apply Hw; [exact Hs|].
  intros j fj Hj Hn. apply (Hind i j fds fj); [lia|exact Hv|exact Hn].
Qed.
End Order.

(* a decision procedure for vars_independent *)
Definition vars_indep_b (vs : list (list step)) : bool :=
  forallb (fun i => forallb (fun j =>
    Nat.eqb i j ||
    match nth_error vs i, nth_error vs j with
    | Some fi, Some fj => untouched fj (steps_path fi)
    | _, _ => true
    end) (seq 0 (length vs))) (seq 0 (length vs)).
Lemma vars_indep_b_ok r : vars_indep_b (r_vars r) = true -> vars_independent r.
Proof.
  intros H i j fi fj Hij Hi Hj. unfold vars_indep_b in H.
  rewrite forallb_forall in H.
  assert (Li : (i < length (r_vars r))%nat) by (apply nth_error_Some; congruence).
  assert (Lj : (j < length (r_vars r))%nat) by (apply nth_error_Some; congruence).
  specialize (H i ltac:(apply in_seq; lia)). rewrite forallb_forall in H.
  specialize (H j ltac:(apply in_seq; lia)). rewrite Hi, Hj in H.
  apply orb_true_iff in H. destruct H as [H|H]; [apply Nat.eqb_eq in H; contradiction|exact H].
Qed.
