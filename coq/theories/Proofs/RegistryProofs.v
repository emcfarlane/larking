(* Model/Registry.v (C11).  After any history of registrations and drops the published state refines the table
   of live registrations: the candidates of a method are its live backends, a route leads to a method that has
   one (Inv over steps; dispatch_live, route_live).  In the routing map keys are keys and bindings that meet
   belong to one method (t_wf, run_wf); over such a map t_add succeeds exactly on an unobstructed key
   (t_add_ok_iff), so a registration is accepted exactly when the published map does not obstruct it
   (reglocal_ok_iff) -- the live table alone does not decide that (unobstructed_live_table_insufficient).
   Last: a second backend for services already routed and a repeated RegisterConn change no route. *)
From Larking Require Import Base.GoSem Model.Registry Spec.AbsTrie.
Import RegistryInstance.
Local Open Scope nat_scope.

Lemma aget_aset {A} k k' (v : A) l : aget k' (aset k v l) = if k =? k' then Some v else aget k' l.
Proof. reflexivity. Qed.
Lemma aget_adel {A} k k' (l : list (nat * A)) : aget k' (adel k l) = if k =? k' then None else aget k' l.
Proof.
  induction l as [|[a v] l IH]; cbn [adel filter aget fst negb].
  - destruct (k =? k'); reflexivity.
  - destruct (a =? k) eqn:E; cbn [negb].
    + apply Nat.eqb_eq in E; subst a. fold (adel k l). rewrite IH.
      destruct (k =? k') eqn:E2; reflexivity.
    + cbn [aget]. fold (adel k l). rewrite IH.
      destruct (a =? k') eqn:E2; [|reflexivity].
      apply Nat.eqb_eq in E2; subst a. rewrite Nat.eqb_sym, E. reflexivity.
Qed.

Lemma hget_aset t c k v hs m :
  hget (State t c (aset k v hs)) m = if k =? m then v else hget (State t c hs) m.
Proof. unfold hget; cbn [shandlers]. rewrite aget_aset. destruct (k =? m); reflexivity. Qed.
Lemma hget_adel t c k hs m :
  hget (State t c (adel k hs)) m = if k =? m then [] else hget (State t c hs) m.
Proof. unfold hget; cbn [shandlers]. rewrite aget_adel. destruct (k =? m); reflexivity. Qed.
Lemma hget_state s t c : hget (State t c (shandlers s)) = hget s.
Proof. reflexivity. Qed.

Lemma owner_eqb_eq a b : owner_eqb a b = true <-> a = b.
Proof.
  destruct a, b; cbn; rewrite ?Nat.eqb_eq; split; intro H; try congruence; try discriminate.
Qed.
Lemma owner_eqb_refl a : owner_eqb a a = true.
Proof. exact (eqb_refl_of _ owner_eqb_eq a). Qed.
Lemma owner_eqb_neq a b : owner_eqb a b = false <-> a <> b.
Proof. exact (eqb_neq_of _ owner_eqb_eq a b). Qed.

(* Registry.t_find, t_add, t_del are the maps of Spec/AbsTrie.v at nat *)
Lemma t_find_in t n v m : t_find t n v = Some m -> In (n, v, m) t.
Proof. exact (a_find_in nat nat nat Nat.eqb Nat.eqb Nat.eqb_eq Nat.eqb_eq t n v m). Qed.
Lemma t_find_none t n v : t_find t n v = None -> ~ In (n, v) (map fst t).
Proof. exact (a_find_none nat nat nat Nat.eqb Nat.eqb Nat.eqb_eq Nat.eqb_eq t n v). Qed.
Lemma t_find_cons n0 v0 m0 t n v :
  t_find ((n0, v0, m0) :: t) n v = if (n0 =? n) && (v0 =? v) then Some m0 else t_find t n v.
Proof. exact (a_find_cons nat nat nat Nat.eqb Nat.eqb n0 v0 m0 t n v). Qed.
Lemma t_in_find t n v m : NoDup (map fst t) -> In (n, v, m) t -> t_find t n v = Some m.
Proof. exact (a_in_find nat nat nat Nat.eqb Nat.eqb Nat.eqb_eq Nat.eqb_eq t n v m). Qed.
Lemma t_other_false x m : t_other x m = false <-> forall m', x = Some m' -> m' = m.
Proof. exact (a_other_false nat Nat.eqb Nat.eqb_eq x m). Qed.
Lemma t_owned_true t n m : t_owned t n m = true <-> forall v m', In (n, v, m') t -> m' = m.
Proof. exact (a_owned_true nat nat nat Nat.eqb Nat.eqb Nat.eqb_eq Nat.eqb_eq t n m). Qed.
Lemma t_add_inv t k m t' b : t_add t k m = Ok (t', b) ->
  kvalid k = true /\ t_other (t_find t (knode k) 0) m = false /\
  (kverb k = 0 -> t_owned t (knode k) m = true) /\
  ((b = false /\ t' = t /\ t_find t (knode k) (kverb k) = Some m) \/
   (b = true /\ t' = (knode k, kverb k, m) :: t /\ t_find t (knode k) (kverb k) = None)).
Proof. exact (a_add_inv nat nat nat Nat.eqb Nat.eqb Nat.eqb 0 Nat.eqb_eq Nat.eqb_eq t (key_of k) m t' b). Qed.
Lemma t_add_benign t k m : match t_add t k m with Ok _ | Err _ => True | _ => False end.
Proof.
  generalize (a_add_err nat nat nat Nat.eqb Nat.eqb Nat.eqb 0 t (key_of k) m). rewrite <- t_add_instance.
  destruct (t_add t k m); auto.
Qed.
Lemma t_del_in t m e : In e (t_del t m) <-> In e t /\ snd e <> m.
Proof. exact (a_del_in nat nat nat Nat.eqb Nat.eqb_eq t m e). Qed.

Lemma t_add_in t k m t' b : t_add t k m = Ok (t', b) ->
  forall e, In e t' <-> In e t \/ (knode k, kverb k, m) = e.
Proof.
  intro H. apply t_add_inv in H. destruct H as (_ & _ & _ & [(_ & -> & F)|(_ & -> & _)]); intro e.
  - apply t_find_in in F. split; [now left|]. now intros [H| <-].
  - cbn [In]. tauto.
Qed.

(* when t_add succeeds, in the vocabulary of the specification: the key is valid and every binding it
   meets (same node; same verb, or a "*" on either side) is of this method *)
Definition entry_key (e : nat * nat * method) : bkey := BKey (fst (fst e)) (snd (fst e)) true.
Lemma key_meets_entry k n v m0 :
  key_meets k (entry_key (n, v, m0)) = true <-> knode k = n /\ (kverb k = v \/ kverb k = 0 \/ v = 0).
Proof.
  unfold key_meets, entry_key. cbn [knode kverb fst snd].
  rewrite andb_true_iff, !orb_true_iff, !Nat.eqb_eq. tauto.
Qed.
Theorem t_add_ok_iff t k m : NoDup (map fst t) ->
  (is_ok (t_add t k m) = true <->
   kvalid k = true /\ forall e, In e t -> key_meets k (entry_key e) = true -> snd e = m).
Proof.
  intro Hnd. split.
  - destruct (t_add t k m) as [[t' b]| | |] eqn:E; try discriminate. intros _.
    apply t_add_inv in E. destruct E as (V & Ho & Hw & Hc). split; [exact V|].
    intros [[n v] m0] Hin Hm. cbn [snd]. apply key_meets_entry in Hm. destruct Hm as [<- Hv].
    destruct (Nat.eq_dec v 0) as [->|Hv0].
    { apply (proj1 (t_other_false _ _) Ho). now apply t_in_find. }
    destruct (Nat.eq_dec (kverb k) 0) as [Hk0|Hk0].
    { apply (proj1 (t_owned_true _ _ _) (Hw Hk0) v). exact Hin. }
    destruct Hv as [Hv|[Hv|Hv]]; try contradiction. subst v.
    pose proof (t_in_find _ _ _ _ Hnd Hin) as F.
    destruct Hc as [(_ & _ & F')|(_ & _ & F')]; congruence.
  - intros [V H]. unfold t_add. rewrite V. cbn [negb].
    assert (Ho : t_other (t_find t (knode k) 0) m = false).
    { apply t_other_false. intros m' F. apply t_find_in in F. apply (H _ F). apply key_meets_entry. auto. }
    rewrite Ho. destruct (kverb k =? 0) eqn:Ev.
    + apply Nat.eqb_eq in Ev.
      assert (Hw : t_owned t (knode k) m = true).
      { apply t_owned_true. intros v m' Hin. apply (H _ Hin). apply key_meets_entry. auto. }
      rewrite Hw. cbn [negb]. destruct (t_find t (knode k) 0); reflexivity.
    + destruct (t_find t (knode k) (kverb k)) as [m0|] eqn:F; [|reflexivity].
      apply t_find_in in F. assert (E0 : m0 = m) by (apply (H _ F), key_meets_entry; auto).
      subst m0. now rewrite Nat.eqb_refl.
Qed.

Definition t_wf (t : trie) : Prop :=
  NoDup (map fst t) /\
  forall e1 e2, In e1 t -> In e2 t -> key_meets (entry_key e1) (entry_key e2) = true -> snd e1 = snd e2.
Lemma t_wf_nil : t_wf [].
Proof. split; [constructor|intros e1 e2 []]. Qed.
Lemma key_meets_sym a b : key_meets a b = key_meets b a.
Proof.
  unfold key_meets. rewrite (Nat.eqb_sym (knode a)), (Nat.eqb_sym (kverb a) (kverb b)).
  destruct (knode b =? knode a), (kverb b =? kverb a), (kverb a =? 0), (kverb b =? 0); reflexivity.
Qed.
Lemma t_add_wf t k m t' b : t_wf t -> t_add t k m = Ok (t', b) -> t_wf t'.
Proof.
  intros [Hnd Hc] H. pose proof (proj1 (t_add_ok_iff t k m Hnd)) as Hok. rewrite H in Hok. destruct (Hok eq_refl) as [_ Hm].
  apply t_add_inv in H. destruct H as (_ & _ & _ & [(_ & -> & _)|(_ & -> & F)]); [split; assumption|].
  split.
  - cbn [map fst]. constructor; [now apply t_find_none|exact Hnd].
  - assert (Hnew : forall e, In e t -> key_meets (entry_key (knode k, kverb k, m)) (entry_key e) = true -> m = snd e).
    { intros e He Hk. symmetry. apply (Hm e He). destruct k as [n v vl]. exact Hk. }
    intros e1 e2 [<-|H1] [<-|H2] Hk; cbn [snd]; auto.
    symmetry. apply (Hnew e1 H1). now rewrite key_meets_sym.
Qed.
Lemma t_del_wf t m : t_wf t -> t_wf (t_del t m).
Proof.
  intros [Hnd Hc]. split; [now apply NoDup_map_filter|].
  intros e1 e2 H1 H2. apply t_del_in in H1, H2. apply Hc; tauto.
Qed.

Lemma t_add_bound t k m : t_wf t -> kvalid k = true -> t_lookup t (knode k) (kverb k) = Some m ->
  exists t' b, t_add t k m = Ok (t', b) /\ forall n v, t_lookup t' n v = t_lookup t n v.
Proof.
  intros [Hnd Hc] V L.
  assert (Hok : is_ok (t_add t k m) = true).
  { apply (t_add_ok_iff t k m Hnd). split; [exact V|]. intros [[n v] m0] Hin Hm. cbn [snd].
    apply key_meets_entry in Hm. destruct Hm as [<- Hv].
    unfold t_lookup in L. destruct (t_find t (knode k) (kverb k)) as [m1|] eqn:F.
    - injection L as ->. apply t_find_in in F. apply (Hc _ _ Hin F). apply key_meets_entry. cbn [knode kverb fst snd]. intuition.
    - apply t_find_in in L. apply (Hc _ _ Hin L). apply key_meets_entry. cbn [knode kverb fst snd].
      split; [reflexivity|]. right. right. reflexivity. }
  destruct (t_add t k m) as [[t' b]| | |] eqn:E; try discriminate. exists t', b. split; [reflexivity|].
  apply t_add_inv in E. destruct E as (_ & _ & _ & [(_ & -> & _)|(_ & -> & F)]); [reflexivity|].
  intros n v. unfold t_lookup in *. rewrite F in L. rewrite !t_find_cons.
  destruct (knode k =? n) eqn:En; cbn [andb]; [|reflexivity]. apply Nat.eqb_eq in En. subst n.
  assert (Hv0 : (kverb k =? 0) = false).
  { destruct (kverb k =? 0) eqn:Q; [|reflexivity]. apply Nat.eqb_eq in Q. rewrite Q in F. congruence. }
  rewrite Hv0. destruct (kverb k =? v) eqn:Ev; [|reflexivity]. apply Nat.eqb_eq in Ev. subst v. now rewrite F, L.
Qed.

(* a registration as the list of (key, method) pairs it adds, in order *)
Fixpoint t_add_keys (t : trie) (kms : list (bkey * method)) : outcome trie :=
  match kms with
  | [] => Ok t
  | km :: r => do x <- t_add t (fst km) (snd km); t_add_keys (fst x) r
  end.
Lemma t_add_keys_app a : forall b t, t_add_keys t (a ++ b) = (do t1 <- t_add_keys t a; t_add_keys t1 b).
Proof.
  induction a as [|km a IH]; intros b t; [reflexivity|]. cbn [app t_add_keys]. rewrite bind_assoc. apply bind_ext. intro x. apply IH.
Qed.
Lemma t_add_all_keys ks : forall t m, t_add_all t ks m = t_add_keys t (map (fun k => (k, m)) ks).
Proof.
  induction ks as [|k ks IH]; intros t m; [reflexivity|]. cbn [t_add_all map t_add_keys fst snd]. apply bind_ext. intro x. apply IH.
Qed.
Lemma t_add_rules_keys rs : forall t m, t_add_rules t rs m = t_add_keys t (map (fun k => (k, m)) (flat_map rule_keys rs)).
Proof.
  induction rs as [|r rs IH]; intros t m; [reflexivity|]. cbn [t_add_rules flat_map]. rewrite map_app, t_add_keys_app.
  assert (E : t_add_rule t r m = t_add_keys t (map (fun k => (k, m)) (rule_keys r))).
  { unfold t_add_rule, rule_keys. cbn [map t_add_keys fst snd]. apply bind_ext. intro x. apply t_add_all_keys. }
  rewrite E. apply bind_ext. intro t1. apply IH.
Qed.
Lemma append_handler_keys s d h :
  (do s' <- append_handler s d h; Ok (spath s')) = t_add_keys (spath s) (map (fun k => (k, mname d)) (mkeys d)).
Proof.
  unfold append_handler, mkeys. cbn [map t_add_keys fst snd].
  pose proof (t_add_benign (spath s) (BKey (mnode d) 0 true) (mname d)) as B.
  destruct (t_add (spath s) (BKey (mnode d) 0 true) (mname d)) as [x|e| |]; cbn [bind]; try contradiction; [|reflexivity].
  rewrite <- t_add_rules_keys. destruct (t_add_rules (fst x) (mrules d) (mname d)); reflexivity.
Qed.
Lemma process_keys ds : forall s o n acc,
  (do r <- process s o ds n acc; Ok (spath (fst r))) = t_add_keys (spath s) (bound_keys ds).
Proof.
  induction ds as [|d ds IH]; intros s o n acc; [reflexivity|].
  cbn [process]. unfold bound_keys. cbn [flat_map].
  rewrite t_add_keys_app, <- (append_handler_keys s d (Handler n o (mname d))), !bind_assoc.
  apply bind_ext. intro s1. apply IH.
Qed.
Lemma process_trie s o ds n acc r :
  process s o ds n acc = Ok r -> t_add_keys (spath s) (bound_keys ds) = Ok (spath (fst r)).
Proof. intro H. now rewrite <- (process_keys ds s o n acc), H. Qed.
Lemma in_bound_keys ds km :
  In km (bound_keys ds) <-> exists d, In d ds /\ In (fst km) (mkeys d) /\ snd km = mname d.
Proof.
  unfold bound_keys. rewrite in_flat_map. split; intros (d & Hd & H); exists d; (split; [exact Hd|]).
  - apply in_map_iff in H. destruct H as (k & <- & Hk). auto.
  - destruct km as [k m]. cbn [fst snd] in H. destruct H as [Hk ->]. now apply (in_map (fun k => (k, mname d))).
Qed.

Lemma t_add_keys_in kms : forall t t', t_add_keys t kms = Ok t' ->
  (forall km, In km kms -> kvalid (fst km) = true) /\
  forall e, In e t' <-> In e t \/ In e (map (fun km => (knode (fst km), kverb (fst km), snd km)) kms).
Proof.
  induction kms as [|[k m] kms IH]; intros t t' H; cbn [t_add_keys fst snd] in H.
  - injection H as <-. split; [intros km []|]. cbn. tauto.
  - apply bind_ok in H. destruct H as ([t1 b] & E & H). destruct (IH _ _ H) as [V A]. split.
    + intros km [<-|Hin]; [apply (t_add_inv _ _ _ _ _ E)|now apply V].
    + intro e. rewrite A, (t_add_in _ _ _ _ _ E). cbn [map In fst snd]. tauto.
Qed.
Lemma process_routes s o ds n acc r : process s o ds n acc = Ok r ->
  forall e, In e (spath (fst r)) -> In e (spath s) \/ exposes ds (snd e) = true.
Proof.
  intros P e He. apply (t_add_keys_in _ _ _ (process_trie _ _ _ _ _ _ P)) in He. destruct He as [H|H]; [now left|right].
  apply in_map_iff in H. destruct H as (km & <- & Hkm).
  apply in_bound_keys in Hkm. destruct Hkm as (d & Hd & _ & Hm). cbn [snd]. rewrite Hm.
  apply existsb_exists. exists d. split; [exact Hd|apply Nat.eqb_refl].
Qed.
Lemma t_add_keys_wf kms : forall t t', t_wf t -> t_add_keys t kms = Ok t' -> t_wf t'.
Proof.
  induction kms as [|[k m] kms IH]; intros t t' W H; cbn [t_add_keys fst snd] in H.
  - now injection H as <-.
  - apply bind_ok in H. destruct H as ([t1 b] & E & H). exact (IH _ _ (t_add_wf _ _ _ _ _ W E) H).
Qed.
Lemma t_add_keys_bound kms : forall t, t_wf t ->
  (forall km, In km kms -> kvalid (fst km) = true /\ t_lookup t (knode (fst km)) (kverb (fst km)) = Some (snd km)) ->
  exists t', t_add_keys t kms = Ok t' /\ forall n v, t_lookup t' n v = t_lookup t n v.
Proof.
  induction kms as [|[k m] kms IH]; intros t W H; cbn [t_add_keys fst snd]; [exists t; auto|].
  destruct (H (k, m) (or_introl eq_refl)) as [V L].
  destruct (t_add_bound t k m W V L) as (t1 & b & E & Q). rewrite E. cbn [bind fst].
  destruct (IH t1 (t_add_wf _ _ _ _ _ W E)) as (t' & E' & Q').
  { intros km Hk. rewrite Q. apply H. now right. }
  exists t'. split; [exact E'|]. intros n v. now rewrite Q', Q.
Qed.

Fixpoint mk_handlers (o : owner) (ds : list mdesc) (n : nat) : list handler :=
  match ds with [] => [] | d :: ds' => Handler n o (mname d) :: mk_handlers o ds' (S n) end.

Lemma append_handler_spec s d h s' : append_handler s d h = Ok s' ->
  sconns s' = sconns s /\ forall m, hget s' m = if mname d =? m then hget s m ++ [h] else hget s m.
Proof.
  unfold append_handler. destruct (t_add (spath s) _ (mname d)) as [x| | |]; try discriminate.
  destruct (t_add_rules (fst x) (mrules d) (mname d)) as [t2| | |]; cbn [bind]; try discriminate.
  intro H; injection H as <-. cbn [sconns]. split; [reflexivity|].
  intro m. rewrite hget_aset. destruct (mname d =? m) eqn:Q; [|reflexivity].
  apply Nat.eqb_eq in Q. now rewrite Q.
Qed.

Lemma process_spec ds : forall s o n acc s' hs, process s o ds n acc = Ok (s', hs) ->
  sconns s' = sconns s /\ hs = acc ++ mk_handlers o ds n /\
  (forall m, hget s' m = hget s m ++ filter (fun h => hmeth h =? m) (mk_handlers o ds n)).
Proof.
  induction ds as [|d ds IH]; intros s o n acc s' hs; cbn [process mk_handlers].
  - intro H; injection H as <- <-. rewrite app_nil_r. repeat split. intro m. cbn [filter]. now rewrite app_nil_r.
  - intro H. apply bind_ok in H. destruct H as (s1 & E & H). apply IH in H. apply append_handler_spec in E.
    destruct E as (E0 & E1), H as (H0 & H1 & H2).
    split; [congruence|]. split; [rewrite H1, <- app_assoc; reflexivity|].
    intro m. rewrite H2, E1. cbn [filter hmeth].
    destruct (mname d =? m); [rewrite <- app_assoc|]; reflexivity.
Qed.

Lemma mk_handlers_in o ds : forall n h, In h (mk_handlers o ds n) -> howner h = o /\ n <= hid h < n + length ds.
Proof.
  induction ds as [|d ds IH]; intros n h; cbn [mk_handlers length]; [intros []|].
  intros [<-|H]; [cbn; split; [reflexivity|lia]|]. apply IH in H. split; [tauto|lia].
Qed.
Lemma mk_handlers_ids o ds : forall n, NoDup (map hid (mk_handlers o ds n)).
Proof.
  induction ds as [|d ds IH]; intro n; cbn [mk_handlers map hid]; constructor; [|apply IH].
  intro H. apply in_map_iff in H. destruct H as (h & Hh & Hin). apply mk_handlers_in in Hin. lia.
Qed.
Lemma mk_handlers_owners o ds m o' : forall n,
  In o' (map howner (filter (fun h => hmeth h =? m) (mk_handlers o ds n))) <-> In o' (if exposes ds m then [o] else []).
Proof.
  unfold exposes. induction ds as [|d ds IH]; intro n; cbn [mk_handlers filter existsb hmeth]; [reflexivity|].
  destruct (mname d =? m); cbn [map In howner orb]; [|apply IH]. rewrite IH. destruct (existsb _ ds); cbn [In]; tauto.
Qed.

Lemma drop_one_hget s hd m :
  hget (drop_one s hd) m = if hmeth hd =? m then filter (fun h => negb (hid h =? hid hd)) (hget s m) else hget s m.
Proof.
  unfold drop_one.
  destruct (filter (fun mhd => negb (hid mhd =? hid hd)) (hget s (hmeth hd))) as [|x l] eqn:F;
    [rewrite hget_adel|rewrite hget_aset]; (destruct (hmeth hd =? m) eqn:E; [|reflexivity]);
    apply Nat.eqb_eq in E; subst m; now rewrite F.
Qed.
(* the routes that stay were there, and one that has no handler left had none before *)
Lemma drop_one_spec s hd :
  sconns (drop_one s hd) = sconns s /\
  forall e, In e (spath (drop_one s hd)) ->
    In e (spath s) /\ (hget (drop_one s hd) (snd e) = [] -> hget s (snd e) = []).
Proof.
  split; [unfold drop_one; destruct (filter _ _); reflexivity|].
  intros e. rewrite drop_one_hget. unfold drop_one.
  destruct (filter (fun mhd => negb (hid mhd =? hid hd)) (hget s (hmeth hd))) as [|x l] eqn:F; cbn [spath].
  - intro He. apply t_del_in in He. destruct He as [He Hne]. split; [exact He|].
    destruct (hmeth hd =? snd e) eqn:E; [apply Nat.eqb_eq in E; congruence|auto].
  - intro He. split; [exact He|]. destruct (hmeth hd =? snd e) eqn:E; [|auto].
    apply Nat.eqb_eq in E. rewrite <- E, F. discriminate.
Qed.

Definition hit (hds : list handler) (m : method) (h : handler) : bool :=
  existsb (fun hd => (hmeth hd =? m) && (hid h =? hid hd)) hds.

Lemma drop_all_spec hds : forall s,
  sconns (fold_left drop_one hds s) = sconns s /\
  (forall m, hget (fold_left drop_one hds s) m = filter (fun h => negb (hit hds m h)) (hget s m)) /\
  (forall e, In e (spath (fold_left drop_one hds s)) ->
     In e (spath s) /\ (hget (fold_left drop_one hds s) (snd e) = [] -> hget s (snd e) = [])).
Proof.
  induction hds as [|hd hds IH]; intro s; cbn [fold_left].
  - repeat split; auto. intro m. unfold hit; cbn. induction (hget s m) as [|a l IHl]; cbn; congruence.
  - destruct (IH (drop_one s hd)) as (A0 & A1 & A2). destruct (drop_one_spec s hd) as (B0 & B2).
    split; [congruence|]. split.
    + intro m. rewrite A1, drop_one_hget. unfold hit; cbn [existsb].
      destruct (hmeth hd =? m) eqn:E; cbn [andb orb]; [|reflexivity].
      rewrite filter_filter_and. apply filter_ext. intro h. rewrite negb_orb, andb_comm. reflexivity.
    + intros e He. destruct (A2 e He) as [H1 H2]. destruct (B2 e H1) as [H3 H4]. auto.
Qed.

Definition conn_entries (T : ltable) (c : nat) : ltable := filter (fun x => owner_eqb (fst x) (OConn c)) T.
Definition drop_entries (T : ltable) (c : nat) : ltable := filter (fun x => negb (owner_eqb (fst x) (OConn c))) T.

Lemma in_live_in T m o : In o (live_in T m) <-> exists ds, In (o, ds) T /\ exposes ds m = true.
Proof.
  unfold live_in. rewrite in_map_iff. split.
  - intros ([o' ds] & <- & H). apply filter_In in H. exists ds. exact H.
  - intros (ds & H1 & H2). exists (o, ds). split; [reflexivity|]. apply filter_In. split; assumption.
Qed.
Lemma live_in_app T o ds m : live_in (T ++ [(o, ds)]) m = live_in T m ++ (if exposes ds m then [o] else []).
Proof.
  unfold live_in. rewrite filter_app, map_app. cbn [filter snd]. destruct (exposes ds m); reflexivity.
Qed.
Lemma live_in_drop T c m o : In o (live_in (drop_entries T c) m) <-> In o (live_in T m) /\ o <> OConn c.
Proof.
  rewrite !in_live_in. unfold drop_entries. split.
  - intros (ds & H1 & H2). apply filter_In in H1. destruct H1 as [H1 H3]. cbn [fst] in H3.
    apply negb_true_iff, owner_eqb_neq in H3. split; [exists ds; split; assumption|exact H3].
  - intros [(ds & H1 & H2) H3]. exists ds. split; [|exact H2]. apply filter_In. split; [exact H1|].
    cbn [fst]. apply negb_true_iff, owner_eqb_neq. exact H3.
Qed.
Lemma conn_entries_app T o ds c :
  conn_entries (T ++ [(o, ds)]) c = conn_entries T c ++ (if owner_eqb o (OConn c) then [(o, ds)] else []).
Proof. unfold conn_entries. rewrite filter_app. cbn [filter fst]. destruct (owner_eqb o (OConn c)); reflexivity. Qed.
Lemma conn_entries_drop T c c' :
  conn_entries (drop_entries T c) c' = if c =? c' then [] else conn_entries T c'.
Proof.
  unfold conn_entries, drop_entries. rewrite filter_filter_and.
  destruct (c =? c') eqn:E.
  - apply Nat.eqb_eq in E; subst c'. induction T as [|x T IH]; [reflexivity|]. cbn [filter].
    destruct (owner_eqb (fst x) (OConn c)); cbn [negb andb]; exact IH.
  - apply filter_ext. intro x. destruct (owner_eqb (fst x) (OConn c')) eqn:Q; [|reflexivity].
    apply owner_eqb_eq in Q. rewrite Q. cbn [owner_eqb]. rewrite Nat.eqb_sym, E. reflexivity.
Qed.
Lemma drop_entries_id T c : conn_entries T c = [] -> drop_entries T c = T.
Proof.
  unfold conn_entries, drop_entries. induction T as [|x T IH]; [reflexivity|]. cbn [filter].
  destruct (owner_eqb (fst x) (OConn c)); [discriminate|]. intro H. cbn [negb]. rewrite IH; auto.
Qed.

Definition hash_okD (D : list desc) : Prop :=
  forall d d', In d D -> In d' D -> dhash d = dhash d' -> dmethods d = dmethods d'.

Definition conn_hs (cs : list (nat * connList)) (c : nat) : list handler :=
  match aget c cs with Some cl => chandlers cl | None => [] end.

Record Inv (D : list desc) (s : state) (T : ltable) (n : nat) : Prop := {
  iH1 : forall m h, In h (hget s m) -> hmeth h = m /\ hid h < n;
  iH2 : forall m, NoDup (map hid (hget s m));
  iH3 : forall c h, In h (conn_hs (sconns s) c) <-> In h (hget s (hmeth h)) /\ howner h = OConn c;
  iC1 : forall m o, In o (map howner (hget s m)) <-> In o (live_in T m);
  iC2 : forall c, match aget c (sconns s) with
                  | None => conn_entries T c = []
                  | Some cl => exists ds, conn_entries T c = [(OConn c, ds)] /\
                                 forall d, In d D -> dhash d = chash cl -> dmethods d = ds
                  end;
  iD : forall e, In e (spath s) -> hget s (snd e) <> []
}.
Arguments iH1 {D s T n}.
Arguments iH2 {D s T n}.
Arguments iH3 {D s T n}.
Arguments iC1 {D s T n}.
Arguments iC2 {D s T n}.
Arguments iD {D s T n}.

Lemma Inv_empty D : Inv D empty_state [] 0.
Proof. constructor; cbn; try tauto; try (intros; constructor); try discriminate. Qed.

Lemma hit_owner D s T n c cl m h : Inv D s T n -> aget c (sconns s) = Some cl -> In h (hget s m) ->
  hit (chandlers cl) m h = owner_eqb (howner h) (OConn c).
Proof.
  intros I Hc Hh. pose proof (iH3 I c) as H3. unfold conn_hs in H3. rewrite Hc in H3.
  destruct (iH1 I _ _ Hh) as [Hm _]. apply Bool.eq_true_iff_eq. unfold hit. rewrite existsb_exists, owner_eqb_eq. split.
  - intros (hd & Hin & E). apply andb_true_iff in E. destruct E as [E1 E2]. apply Nat.eqb_eq in E1, E2.
    apply H3 in Hin. destruct Hin as [Hin Ho]. rewrite E1 in Hin.
    now rewrite (NoDup_map_inj hid _ h hd (iH2 I m) Hh Hin E2).
  - intro Q. exists h. split; [apply H3; now rewrite Hm|]. now rewrite Hm, !Nat.eqb_refl.
Qed.

Lemma in_owners_but c (l : list handler) o :
  In o (map howner (filter (fun h => negb (owner_eqb (howner h) (OConn c))) l)) <-> In o (map howner l) /\ o <> OConn c.
Proof.
  rewrite !in_map_iff. split.
  - intros (h & <- & Hh). apply filter_In in Hh. destruct Hh as [Hh Ho]. apply negb_true_iff, owner_eqb_neq in Ho. eauto.
  - intros [(h & <- & Hh) Ho]. exists h. split; [reflexivity|]. apply filter_In. split; [exact Hh|].
    now apply negb_true_iff, owner_eqb_neq.
Qed.
Lemma remove_conns s c c' :
  aget c' (sconns (fst (remove_handler s c))) = if c =? c' then None else aget c' (sconns s).
Proof.
  unfold remove_handler. destruct (aget c (sconns s)) as [cl|] eqn:Hc; cbn [fst sconns].
  - destruct (drop_all_spec (chandlers cl) s) as (A0 & _). now rewrite A0, aget_adel.
  - destruct (c =? c') eqn:E; [apply Nat.eqb_eq in E; now subst c'|reflexivity].
Qed.
Lemma remove_false s c : snd (remove_handler s c) = false -> fst (remove_handler s c) = s.
Proof. unfold remove_handler. destruct (aget c (sconns s)); [discriminate|reflexivity]. Qed.

Lemma remove_spec D s T n c cl : Inv D s T n -> aget c (sconns s) = Some cl ->
  let s1 := fst (remove_handler s c) in
  snd (remove_handler s c) = true /\
  (forall m, hget s1 m = filter (fun h => negb (owner_eqb (howner h) (OConn c))) (hget s m)) /\
  (forall e, In e (spath s1) -> hget s1 (snd e) <> []).
Proof.
  intros I Hc. unfold remove_handler. rewrite Hc. cbn [fst snd spath].
  destruct (drop_all_spec (chandlers cl) s) as (_ & A1 & A2). rewrite hget_state. split; [reflexivity|]. split.
  - intro m. rewrite A1. apply filter_ext_in. intros h Hh. erewrite hit_owner; eauto.
  - intros e He Q. destruct (A2 e He) as [H1 H2]. exact (iD I e H1 (H2 Q)).
Qed.

Lemma remove_inv D s T n c : Inv D s T n -> Inv D (fst (remove_handler s c)) (drop_entries T c) n.
Proof.
  intro I. destruct (aget c (sconns s)) as [cl|] eqn:Hc.
  2:{ unfold remove_handler. rewrite Hc. cbn [fst]. rewrite drop_entries_id; [exact I|].
      generalize (iC2 I c). now rewrite Hc. }
  destruct (remove_spec _ _ _ _ _ _ I Hc) as (_ & R1 & R4).
  set (s1 := fst (remove_handler s c)) in *. constructor.
  - intros m h Hh. rewrite R1 in Hh. apply filter_In in Hh. apply (iH1 I). tauto.
  - intro m. rewrite R1. apply NoDup_map_filter. apply (iH2 I).
  - intros c' h. unfold s1, conn_hs. rewrite remove_conns, R1, filter_In, negb_true_iff, owner_eqb_neq.
    destruct (c =? c') eqn:E.
    + apply Nat.eqb_eq in E; subst c'. cbn [In]. tauto.
    + fold (conn_hs (sconns s) c'). rewrite (iH3 I c' h). split; [|tauto].
      intros [H1 H2]. split; [split; [exact H1|]|exact H2]. rewrite H2. intro Q; injection Q as ->. now rewrite Nat.eqb_refl in E.
  - intros m o. now rewrite live_in_drop, <- (iC1 I), R1, in_owners_but.
  - intro c'. unfold s1. rewrite remove_conns, conn_entries_drop. destruct (c =? c'); [reflexivity|].
    apply (iC2 I c').
  - exact R4.
Qed.

Lemma NoDup_app_lt (l1 l2 : list nat) n : NoDup l1 -> NoDup l2 ->
  (forall x, In x l1 -> x < n) -> (forall x, In x l2 -> n <= x) -> NoDup (l1 ++ l2).
Proof.
  intros H1 H2 A B. induction l1 as [|a l1 IH]; [exact H2|]. cbn [app].
  inversion H1; subst. constructor.
  - intro Hin. apply in_app_or in Hin. destruct Hin as [Hin|Hin]; [contradiction|].
    specialize (A a (or_introl eq_refl)). specialize (B a Hin). lia.
  - apply IH; [assumption|]. intros x Hx. apply A. right. exact Hx.
Qed.

(* a registration by o: its handlers are new; if o is a connection, it was unknown and lists them *)
Lemma install_inv D s T n o ds s' hs conns' :
  Inv D s T n -> process s o ds n [] = Ok (s', hs) ->
  (forall c', if owner_eqb o (OConn c')
              then aget c' (sconns s) = None /\
                   exists cl', aget c' conns' = Some cl' /\ chandlers cl' = hs /\
                     forall d', In d' D -> dhash d' = chash cl' -> dmethods d' = ds
              else aget c' conns' = aget c' (sconns s)) ->
  Inv D (State (spath s') conns' (shandlers s')) (T ++ [(o, ds)]) (n + length ds).
Proof.
  intros I P HC. pose proof (process_routes _ _ _ _ _ _ P) as PR. cbn [fst] in PR.
  apply process_spec in P. destruct P as (_ & -> & P2). cbn [app] in HC.
  assert (M : forall m h, In h (hget s' m) <-> In h (hget s m) \/ In h (mk_handlers o ds n) /\ hmeth h = m).
  { intros m h. now rewrite P2, in_app_iff, filter_In, Nat.eqb_eq. }
  pose proof (mk_handlers_in o ds n) as NEW.
  constructor; cbn [sconns spath]; rewrite ?hget_state.
  - intros m h Hh. apply M in Hh. destruct Hh as [Hh|[Hh Hm]].
    + destruct (iH1 I _ _ Hh). split; [assumption|lia].
    + apply NEW in Hh. split; [exact Hm|lia].
  - intro m. rewrite P2, map_app. apply NoDup_app_lt with (n := n).
    + apply (iH2 I).
    + apply NoDup_map_filter. apply mk_handlers_ids.
    + intros x Hx. apply in_map_iff in Hx. destruct Hx as (h & <- & Hh). apply (iH1 I _ _ Hh).
    + intros x Hx. apply in_map_iff in Hx. destruct Hx as (h & <- & Hh). apply filter_In, proj1, NEW in Hh. lia.
  - intros c' h. rewrite M. specialize (HC c'). pose proof (iH3 I c' h) as H3. unfold conn_hs in *.
    destruct (owner_eqb o (OConn c')) eqn:Q.
    + apply owner_eqb_eq in Q. destruct HC as (Hold & cl' & -> & -> & _). rewrite Hold in H3. split.
      * intro Hin. split; [now right|]. rewrite <- Q. now apply NEW.
      * intros [[H1|[H1 _]] H2]; [destruct (proj2 H3 (conj H1 H2))|exact H1].
    + rewrite HC, H3. split; [tauto|]. intros [[H1|[H1 _]] H2]; [tauto|].
      apply owner_eqb_neq in Q. destruct Q. rewrite <- H2. symmetry. now apply NEW.
  - intros m o'. now rewrite live_in_app, P2, map_app, !in_app_iff, (iC1 I), mk_handlers_owners.
  - intro c'. rewrite conn_entries_app. specialize (HC c'). generalize (iC2 I c').
    destruct (owner_eqb o (OConn c')) eqn:Q.
    + apply owner_eqb_eq in Q. destruct HC as (-> & cl' & -> & _ & Hhash). intros ->. exists ds. now rewrite Q.
    + rewrite HC, app_nil_r. auto.
  - intros e He Q. rewrite P2 in Q. apply app_eq_nil in Q. destruct Q as [Q1 Q2].
    destruct (PR e He) as [H|H]; [exact (iD I e H Q1)|].
    pose proof (proj2 (mk_handlers_owners o ds (snd e) o n)) as X. rewrite H, Q2 in X. exact (X (or_introl eq_refl)).
Qed.

Lemma Inv_mono D s T n n' : n <= n' -> Inv D s T n -> Inv D s T n'.
Proof.
  intros L I. destruct I as [H1 H2 H3 C1 C2 R]. constructor; auto.
  intros m h Hh. destruct (H1 _ _ Hh). split; [assumption|lia].
Qed.
Lemma Inv_retable D s T T' n : Inv D s T n ->
  (forall m o, In o (live_in T' m) <-> In o (live_in T m)) ->
  (forall c, conn_entries T' c = conn_entries T c) -> Inv D s T' n.
Proof.
  intros I L C. destruct I as [H1 H2 H3 C1 C2 R]. constructor; auto.
  - intros m o. rewrite L. apply C1.
  - intro c. rewrite C. apply C2.
Qed.
Lemma state_eta s : State (spath s) (sconns s) (shandlers s) = s.
Proof. destruct s; reflexivity. Qed.

Definition MInv D (mx : mux) (T : ltable) : Prop := Inv D (clone (published mx)) T (fresh mx).
Definition op_in (D : list desc) (o : op) : Prop := match o with RegConn _ d => In d D | _ => True end.

(* addConnHandler: nothing to do, or drop and create *)
Definition same_hash (s : state) (c : nat) (d : desc) : bool :=
  match aget c (sconns s) with Some cl => chash cl =? dhash d | None => false end.
Definition create (s : state) (c : nat) (d : desc) (next : nat) : outcome state :=
  do r <- process s (OConn c) (dmethods d) next [];
  Ok (State (spath (fst r)) (aset c (ConnList (snd r) (dhash d)) (sconns (fst r))) (shandlers (fst r))).
(* for a connection that is not registered, dropping is the identity *)
Lemma add_conn_handler_eq s c d n :
  add_conn_handler s c d n = if same_hash s c d then Ok s else create (fst (remove_handler s c)) c d n.
Proof.
  unfold add_conn_handler, same_hash, remove_handler, create.
  destruct (aget c (sconns s)) as [cl|]; [destruct (chash cl =? dhash d)|]; reflexivity.
Qed.
Lemma same_hash_true s c d :
  same_hash s c d = true <-> exists cl, aget c (sconns s) = Some cl /\ chash cl = dhash d.
Proof.
  unfold same_hash. destruct (aget c (sconns s)) as [cl|].
  - rewrite Nat.eqb_eq. split; [eauto|]. intros (cl' & E & H). now injection E as ->.
  - split; [discriminate|]. intros (cl & E & _). discriminate.
Qed.
Lemma create_spec s c d n s' : create s c d n = Ok s' ->
  exists s1 hs, process s (OConn c) (dmethods d) n [] = Ok (s1, hs) /\
    s' = State (spath s1) (aset c (ConnList hs (dhash d)) (sconns s)) (shandlers s1).
Proof.
  unfold create. intro H. apply bind_ok in H. destruct H as ([s1 hs] & P & H). injection H as <-.
  exists s1, hs. split; [exact P|]. apply process_spec in P. destruct P as (P0 & _). cbn [fst snd]. now rewrite P0.
Qed.

Lemma create_inv D s T n c d s' : hash_okD D -> In d D -> Inv D s T n -> aget c (sconns s) = None ->
  create s c d n = Ok s' -> Inv D s' (T ++ [(OConn c, dmethods d)]) (n + length (dmethods d)).
Proof.
  intros HK Hd I Hc H. apply create_spec in H. destruct H as (s1 & hs & P & ->).
  eapply install_inv; eauto. intro c'. cbn [owner_eqb]. rewrite aget_aset. destruct (c =? c') eqn:E; [|reflexivity].
  apply Nat.eqb_eq in E; subst c'. split; [exact Hc|]. eexists. split; [reflexivity|]. split; [reflexivity|].
  intros d' Hd'. now apply HK.
Qed.

Lemma live_step_conn T c d : live_step T (RegConn c d, ROk) = drop_entries T c ++ [(OConn c, dmethods d)].
Proof. reflexivity. Qed.
Lemma live_step_drop T c r : live_step T (DropConn c, r) = drop_entries T c.
Proof. reflexivity. Qed.

Lemma in_drop_or_conn T c x : In x (drop_entries T c ++ conn_entries T c) <-> In x T.
Proof.
  unfold drop_entries, conn_entries. rewrite in_app_iff, !filter_In.
  destruct (owner_eqb (fst x) (OConn c)); cbn [negb]; intuition discriminate.
Qed.
(* an entry of T that is the only one of its connection may stand anywhere *)
Lemma Inv_reregistered D s T n c ds : Inv D s T n -> conn_entries T c = [(OConn c, ds)] ->
  Inv D s (drop_entries T c ++ [(OConn c, ds)]) n.
Proof.
  intros I E1. apply (Inv_retable _ _ T); [exact I| |].
  - intros m o. rewrite <- E1, !in_live_in.
    split; intros (ds' & H & X); exists ds'; (split; [|exact X]); now apply (in_drop_or_conn T c).
  - intro c'. rewrite conn_entries_app, conn_entries_drop. cbn [owner_eqb]. destruct (c =? c') eqn:Q.
    + apply Nat.eqb_eq in Q; subst c'. now rewrite E1.
    + now rewrite app_nil_r.
Qed.

Lemma step_inv D mx T o : hash_okD D -> op_in D o -> MInv D mx T ->
  MInv D (fst (step mx o)) (live_step T (o, snd (step mx o))).
Proof.
  intros HK Ho I. unfold MInv in *. set (s := clone (published mx)) in *.
  assert (Failed : forall k, Inv D s T (fresh mx + k)) by (intro k; eapply Inv_mono; [|exact I]; lia).
  destruct o as [l ds|c d|c]; cbn [step]; fold s.
  - destruct (process s (OLocal l) ds (fresh mx) []) as [[s' hs]| | |] eqn:P;
      cbn [fst snd published fresh clone live_step]; try apply Failed.
    pose proof (process_spec _ _ _ _ _ _ _ P) as (P0 & _).
    rewrite <- (state_eta s'). eapply install_inv; eauto. intro c'. now rewrite P0.
  - cbn [op_in] in Ho. rewrite add_conn_handler_eq. destruct (same_hash s c d) eqn:Hh.
    + apply same_hash_true in Hh. destruct Hh as (cl & Hc & Hh).
      cbn [fst snd published fresh clone]. rewrite live_step_conn.
      generalize (iC2 I c). rewrite Hc. intros (ds & E1 & E2).
      rewrite (E2 d Ho (eq_sym Hh)). now apply Inv_reregistered.
    + destruct (create (fst (remove_handler s c)) c d (fresh mx)) as [s'| | |] eqn:P;
        cbn [fst snd published fresh clone]; rewrite ?live_step_conn; try apply Failed.
      eapply create_inv; eauto; [now apply remove_inv|now rewrite remove_conns, Nat.eqb_refl].
  - rewrite live_step_drop. pose proof (remove_inv _ _ _ _ c I) as I1.
    destruct (snd (remove_handler s c)) eqn:R; cbn [fst published fresh clone]; [exact I1|].
    fold s. now rewrite <- (remove_false s c R).
Qed.

Lemma steps_inv D : hash_okD D -> forall h mx T, Forall (op_in D) h -> MInv D mx T ->
  MInv D (steps mx h) (fold_left live_step (trace_from mx h) T).
Proof.
  intros HK h. induction h as [|o h IH]; intros mx T F I; cbn [steps trace_from fold_left]; [exact I|].
  inversion F; subst. apply IH; [assumption|]. apply step_inv; assumption.
Qed.

Definition descs_of (h : list op) : list desc :=
  flat_map (fun o => match o with RegConn _ d => [d] | _ => [] end) h.
(* the descriptor hash (SHA-256 of the file descriptors) identifies what a backend lists *)
Definition hash_ok (h : list op) : Prop := hash_okD (descs_of h).

Lemma op_in_descs h : Forall (op_in (descs_of h)) h.
Proof.
  apply Forall_forall. intros o Ho. destruct o as [l ds|c d|c]; cbn [op_in]; auto.
  unfold descs_of. apply in_flat_map. exists (RegConn c d). split; [exact Ho|left; reflexivity].
Qed.

Lemma run_inv h : hash_ok h -> MInv (descs_of h) (run h) (live_table (trace h)).
Proof.
  intro HK. unfold run, trace, live_table. apply steps_inv; [exact HK|apply op_in_descs|].
  unfold MInv. cbn. apply Inv_empty.
Qed.

Lemma candidates_clone mx m : candidates mx m = map howner (hget (clone (published mx)) m).
Proof. unfold candidates. destruct (published mx); reflexivity. Qed.

Lemma dispatch_live h m o : hash_ok h -> In o (candidates (run h) m) <-> In o (live (trace h) m).
Proof.
  intro HK. rewrite candidates_clone. unfold live. apply (iC1 (run_inv h HK)).
Qed.

Lemma nil_iff_no_member {A} (l : list A) : l = [] <-> forall x, ~ In x l.
Proof.
  split; [intros -> x []|]. destruct l as [|a l]; [reflexivity|]. intro H. exfalso. apply (H a). left; reflexivity.
Qed.
Lemma candidates_nil_iff h m : hash_ok h -> candidates (run h) m = [] <-> live (trace h) m = [].
Proof.
  intro HK. rewrite !nil_iff_no_member. split; intros H x Hx; apply (H x); apply (dispatch_live h m x HK); exact Hx.
Qed.

Lemma unimplemented_iff_empty h m : hash_ok h ->
  (grpc_replies (run h) m = [Unimplemented] <-> live (trace h) m = []) /\
  (forall r, In r (grpc_replies (run h) m) ->
     (r = Unimplemented /\ live (trace h) m = []) \/ (exists o, r = Served o /\ In o (live (trace h) m))).
Proof.
  intro HK. pose proof (candidates_nil_iff h m HK) as N. unfold grpc_replies.
  destruct (candidates (run h) m) as [|o os] eqn:C.
  - split; [split; intro; [apply N|]; reflexivity|]. intros r [<-|[]]. left. split; [reflexivity|apply N; reflexivity].
  - split.
    + split; [cbn; discriminate|]. intro L. apply N in L. discriminate.
    + intros r Hr. apply in_map_iff in Hr. destruct Hr as (o' & <- & Ho). right. exists o'. split; [reflexivity|].
      apply (dispatch_live h m o' HK). rewrite C. exact Ho.
Qed.

Lemma t_lookup_in t n v m : t_lookup t n v = Some m -> exists v', In (n, v', m) t.
Proof.
  unfold t_lookup. destruct (t_find t n v) as [m'|] eqn:F.
  - intro H; inversion H; subst. exists v. apply t_find_in. exact F.
  - intro H. exists 0. apply t_find_in. exact H.
Qed.

(* a route that is present leads to a method with a live backend *)
Lemma route_live h n v m : hash_ok h -> route (run h) n v = Some m -> live (trace h) m <> [].
Proof.
  intros HK R. unfold route in R. destruct (published (run h)) as [s|] eqn:P; [|discriminate].
  apply t_lookup_in in R. destruct R as (v' & Hin).
  pose proof (run_inv h HK) as I. unfold MInv in I. rewrite P in I. cbn [clone] in I.
  pose proof (iD I _ Hin) as Hne. cbn [snd] in Hne.
  intro L. apply (candidates_nil_iff h m HK) in L. rewrite candidates_clone, P in L. cbn [clone] in L.
  apply map_eq_nil in L. contradiction.
Qed.

Lemma routes_follow h n v r : hash_ok h -> In r (http_replies (run h) n v) ->
  (r = NotFound /\ route (run h) n v = None) \/
  (exists m o, route (run h) n v = Some m /\ r = Served o /\ In o (live (trace h) m)).
Proof.
  intros HK. unfold http_replies. destruct (route (run h) n v) as [m|] eqn:R.
  - intro Hr. right. pose proof (route_live h n v m HK R) as L.
    destruct (proj2 (unimplemented_iff_empty h m HK) r Hr) as [[_ E]|(o & E & Ho)]; [contradiction|].
    exists m, o. auto.
  - intros [<-|[]]. left. auto.
Qed.

Lemma conn_known h c : hash_ok h ->
  (aget c (sconns (clone (published (run h)))) = None <-> conn_entries (live_table (trace h)) c = []).
Proof.
  intro HK. pose proof (run_inv h HK) as I. generalize (iC2 I c).
  destruct (aget c (sconns (clone (published (run h))))) as [cl|].
  - intros (ds & E & _). rewrite E. split; discriminate.
  - intro E. split; auto.
Qed.

Lemma drop_unknown h c : hash_ok h -> conn_entries (live_table (trace h)) c = [] ->
  step (run h) (DropConn c) = (run h, RFalse).
Proof.
  intros HK E. apply (conn_known h c HK) in E. cbn [step]. unfold remove_handler. rewrite E. reflexivity.
Qed.
Lemma drop_known h c : hash_ok h -> conn_entries (live_table (trace h)) c <> [] ->
  snd (step (run h) (DropConn c)) = RTrue /\
  forall m o, In o (candidates (fst (step (run h) (DropConn c))) m) <-> In o (candidates (run h) m) /\ o <> OConn c.
Proof.
  intros HK E. pose proof (run_inv h HK) as I. unfold MInv in I.
  destruct (aget c (sconns (clone (published (run h))))) as [cl|] eqn:Hc.
  - pose proof (remove_spec _ _ _ _ _ _ I Hc) as (R & R1 & _). cbn [step]. rewrite R. cbn [fst snd].
    split; [reflexivity|]. intros m o. rewrite !candidates_clone. cbn [published clone]. now rewrite R1, in_owners_but.
  - apply (conn_known h c HK) in Hc. contradiction.
Qed.

(* a successful RegisterConn leaves the descriptor hash behind; repeating it is a no-op *)
Lemma reg_conn_hash mx c d : snd (step mx (RegConn c d)) = ROk ->
  exists cl, aget c (sconns (clone (published (fst (step mx (RegConn c d)))))) = Some cl /\ chash cl = dhash d.
Proof.
  cbn [step]. rewrite add_conn_handler_eq. set (s := clone (published mx)).
  destruct (same_hash s c d) eqn:Hh; [intros _; now apply same_hash_true|].
  destruct (create _ c d (fresh mx)) as [s'| | |] eqn:P; cbn [fst snd]; try discriminate. intros _.
  apply create_spec in P. destruct P as (s1 & hs & _ & ->). cbn [published clone sconns].
  rewrite aget_aset, Nat.eqb_refl. eexists; split; reflexivity.
Qed.
Lemma reg_conn_again mx c d cl : aget c (sconns (clone (published mx))) = Some cl -> chash cl = dhash d ->
  snd (step mx (RegConn c d)) = ROk /\
  clone (published (fst (step mx (RegConn c d)))) = clone (published mx).
Proof.
  intros Hc Hh. cbn [step]. rewrite add_conn_handler_eq, (proj2 (same_hash_true _ c d)) by eauto. auto.
Qed.

(* operations on other connections and local registrations leave a connection's entry alone *)
Definition touches (c : nat) (o : op) : bool :=
  match o with RegConn c' _ | DropConn c' => c' =? c | RegLocal _ _ => false end.
Lemma step_frame mx o c : touches c o = false ->
  aget c (sconns (clone (published (fst (step mx o))))) = aget c (sconns (clone (published mx))).
Proof.
  intro Tc. set (s := clone (published mx)). destruct o as [l ds|c' d|c']; cbn [step touches] in *; fold s.
  - destruct (process s (OLocal l) ds (fresh mx) []) as [[s' hs]| | |] eqn:P; cbn [fst published clone]; try reflexivity.
    apply process_spec in P. destruct P as (P0 & _). now rewrite P0.
  - rewrite add_conn_handler_eq. destruct (same_hash s c' d); [reflexivity|].
    destruct (create _ c' d (fresh mx)) as [s'| | |] eqn:P; cbn [fst published clone]; try reflexivity.
    apply create_spec in P. destruct P as (s1 & hs & _ & ->). cbn [sconns]. now rewrite aget_aset, Tc, remove_conns, Tc.
  - destruct (snd (remove_handler s c')); cbn [fst published clone]; [|reflexivity]. now rewrite remove_conns, Tc.
Qed.
Lemma steps_frame h : forall mx c, (forall o, In o h -> touches c o = false) ->
  aget c (sconns (clone (published (steps mx h)))) = aget c (sconns (clone (published mx))).
Proof.
  induction h as [|o h IH]; intros mx c F; cbn [steps]; [reflexivity|].
  rewrite IH; [|intros o' Ho'; apply F; right; exact Ho'].
  apply step_frame. apply F. left; reflexivity.
Qed.

(* a second backend for services that are already routed *)
Definition all_bound (t : trie) (ds : list mdesc) : Prop :=
  forall d k, In d ds -> In k (mkeys d) -> kvalid k = true /\ t_lookup t (knode k) (kverb k) = Some (mname d).

Lemma process_wf s o ds n acc r : t_wf (spath s) -> process s o ds n acc = Ok r -> t_wf (spath (fst r)).
Proof. intros W P. exact (t_add_keys_wf _ _ _ W (process_trie _ _ _ _ _ _ P)). Qed.
Lemma drop_one_wf s hd : t_wf (spath s) -> t_wf (spath (drop_one s hd)).
Proof.
  intro W. unfold drop_one. destruct (filter _ (hget s (hmeth hd))); cbn [spath]; [now apply t_del_wf|exact W].
Qed.
Lemma drop_all_wf hds : forall s, t_wf (spath s) -> t_wf (spath (fold_left drop_one hds s)).
Proof. induction hds as [|hd hds IH]; intros s W; cbn [fold_left]; [exact W|]. apply IH. now apply drop_one_wf. Qed.
Lemma remove_handler_wf s c : t_wf (spath s) -> t_wf (spath (fst (remove_handler s c))).
Proof.
  intro W. unfold remove_handler. destruct (aget c (sconns s)) as [cl|]; cbn [fst spath]; [|exact W]. now apply drop_all_wf.
Qed.
Lemma add_conn_handler_wf s c d n s' : t_wf (spath s) -> add_conn_handler s c d n = Ok s' -> t_wf (spath s').
Proof.
  intro W. rewrite add_conn_handler_eq. destruct (same_hash s c d); [intro H; now injection H as <-|].
  intro H. apply create_spec in H. destruct H as (s1 & hs & P & ->).
  exact (process_wf _ _ _ _ _ _ (remove_handler_wf s c W) P).
Qed.
Lemma step_wf mx o : t_wf (spath (clone (published mx))) -> t_wf (spath (clone (published (fst (step mx o))))).
Proof.
  intro W. destruct o as [l ds|c d|c]; cbn [step].
  - destruct (process (clone (published mx)) (OLocal l) ds (fresh mx) []) as [r| | |] eqn:P; cbn [fst published clone]; auto.
    eapply process_wf; eauto.
  - destruct (add_conn_handler (clone (published mx)) c d (fresh mx)) as [s'| | |] eqn:P; cbn [fst published clone]; auto.
    eapply add_conn_handler_wf; eauto.
  - destruct (snd (remove_handler (clone (published mx)) c)); cbn [fst published clone]; auto.
    now apply remove_handler_wf.
Qed.
Lemma steps_wf h : forall mx, t_wf (spath (clone (published mx))) -> t_wf (spath (clone (published (steps mx h)))).
Proof. induction h as [|o h IH]; intros mx W; cbn [steps]; [exact W|]. apply IH. now apply step_wf. Qed.
(* in every published map keys are keys and bindings that meet belong to one method: the pairwise
   condition of [unobstructed], on the map itself *)
Theorem run_wf h : t_wf (spath (clone (published (run h)))).
Proof. apply steps_wf. apply t_wf_nil. Qed.

Lemma process_bound ds s o n acc : t_wf (spath s) -> all_bound (spath s) ds ->
  exists s', process s o ds n acc = Ok (s', acc ++ mk_handlers o ds n) /\
             forall n' v, t_lookup (spath s') n' v = t_lookup (spath s) n' v.
Proof.
  intros W B. destruct (t_add_keys_bound (bound_keys ds) (spath s) W) as (t' & E & Q).
  { intros km Hin. apply in_bound_keys in Hin. destruct Hin as (d & Hd & Hk & ->). exact (B d _ Hd Hk). }
  rewrite <- (process_keys ds s o n acc) in E.
  destruct (process s o ds n acc) as [[s' hs]| | |] eqn:P; try discriminate. injection E as <-.
  exists s'. destruct (process_spec _ _ _ _ _ _ _ P) as (_ & -> & _). auto.
Qed.

(* The specification Registry.unobstructed T ds takes "theirs" from the descriptors of the live table T.
   The exact law takes them from the published map: the rules of a method stay in the trie until its
   last handler goes, whichever registration brought them (unobstructed_live_table_insufficient). *)
Definition trie_keys (t : trie) : list (bkey * method) := map (fun e => (entry_key e, snd e)) t.
Definition unobstructed_in (theirs : list (bkey * method)) (ds : list mdesc) : bool :=
  let mine := bound_keys ds in
  forallb (fun km => kvalid (fst km) &&
             forallb (fun km' => negb (key_meets (fst km) (fst km')) || (snd km =? snd km')) (mine ++ theirs)) mine.
Lemma unobstructed_eq T ds : unobstructed T ds = unobstructed_in (flat_map (fun x => bound_keys (snd x)) T) ds.
Proof. reflexivity. Qed.

Definition Unob (theirs mine : list (bkey * method)) : Prop :=
  forall km, In km mine -> kvalid (fst km) = true /\
    forall km', In km' (mine ++ theirs) -> key_meets (fst km) (fst km') = true -> snd km = snd km'.
Lemma unobstructed_in_Unob theirs ds : unobstructed_in theirs ds = true <-> Unob theirs (bound_keys ds).
Proof.
  unfold unobstructed_in, Unob. rewrite forallb_forall. split.
  - intros H km Hin. specialize (H km Hin). apply andb_true_iff in H. destruct H as [V H]. split; [exact V|].
    rewrite forallb_forall in H. intros km' Hin' Hm. specialize (H km' Hin'). cbv beta in H. apply orb_true_iff in H. destruct H as [H|H]; [|now apply Nat.eqb_eq].
    apply negb_true_iff in H. exfalso. revert H Hm. unfold method. intros H Hm. rewrite H in Hm. discriminate.
  - intros H km Hin. destruct (H km Hin) as [V C]. apply andb_true_iff. split; [exact V|]. apply forallb_forall. intros km' Hin'.
    apply orb_true_iff. destruct (key_meets (fst km) (fst km')) eqn:Hm; [right|left; reflexivity].
    apply Nat.eqb_eq. now apply C.
Qed.

Lemma trie_keys_in t e : In e t -> In (entry_key e, snd e) (trie_keys t).
Proof. intro H. unfold trie_keys. apply in_map_iff. exists e. auto. Qed.

Theorem t_add_keys_ok_iff kms t : t_wf t -> (is_ok (t_add_keys t kms) = true <-> Unob (trie_keys t) kms).
Proof.
  intro W. split.
  - (* on success every key, and every binding there was, stands in one map whose bindings agree *)
    destruct (t_add_keys t kms) as [t'| | |] eqn:E; try discriminate. intros _.
    destruct (t_add_keys_in _ _ _ E) as [V A]. pose proof (proj2 (t_add_keys_wf _ _ _ W E)) as C.
    intros km Hin. split; [now apply V|]. intros km' Hin' Hm.
    assert (H' : exists e', In e' t' /\ key_meets (fst km) (entry_key e') = true /\ snd e' = snd km').
    { apply in_app_or in Hin'. destruct Hin' as [Hin'|Hin'].
      - exists (knode (fst km'), kverb (fst km'), snd km'). split; [apply A; right; apply in_map_iff; eauto|]. split; [exact Hm|reflexivity].
      - apply in_map_iff in Hin'. destruct Hin' as (e' & <- & He'). exists e'. split; [apply A; now left|]. split; [exact Hm|reflexivity]. }
    destruct H' as (e' & He' & Hm' & <-).
    apply (C (knode (fst km), kverb (fst km), snd km) e'); [apply A; right; apply in_map_iff; eauto|exact He'|exact Hm'].
  - (* conversely the keys are accepted one by one: a binding the rest meets in the grown map is one it met before, or the head *)
    revert t W. induction kms as [|[k m] kms IH]; intros t W U; cbn [t_add_keys fst snd]; [reflexivity|].
    assert (Hhead : is_ok (t_add t k m) = true).
    { apply (t_add_ok_iff t k m (proj1 W)). destruct (U (k, m) (or_introl eq_refl)) as [V C]. split; [exact V|].
      intros e0 He Hm. symmetry. apply (C (entry_key e0, snd e0)); [right; apply in_or_app; right; now apply trie_keys_in|exact Hm]. }
    destruct (t_add t k m) as [[t1 b]| | |] eqn:E; try discriminate. cbn [bind fst].
    apply (IH t1 (t_add_wf _ _ _ _ _ W E)). intros km Hin. destruct (U km (or_intror Hin)) as [V C]. split; [exact V|].
    intros km' Hin' Hm. apply in_app_or in Hin'. destruct Hin' as [Hin'|Hin']; [apply C; [right; apply in_or_app; now left|exact Hm]|].
    apply in_map_iff in Hin'. destruct Hin' as (e & <- & He). apply (t_add_in _ _ _ _ _ E) in He. destruct He as [He| <-].
    + apply (C (entry_key e, snd e)); [right; apply in_or_app; right; now apply trie_keys_in|exact Hm].
    + apply (C (k, m)); [now left|exact Hm].
Qed.

(* registerService / the method loop of RegisterConn is accepted exactly when the registration is
   unobstructed by the bindings of the map it starts from *)
Theorem process_ok_iff s o ds n acc : t_wf (spath s) ->
  (is_ok (process s o ds n acc) = true <-> unobstructed_in (trie_keys (spath s)) ds = true).
Proof.
  intro W. rewrite unobstructed_in_Unob, <- (t_add_keys_ok_iff (bound_keys ds) (spath s) W), <- (process_keys ds s o n acc).
  destruct (process s o ds n acc); reflexivity.
Qed.
Theorem reglocal_ok_iff h l ds :
  snd (step (run h) (RegLocal l ds)) = ROk <->
  unobstructed_in (trie_keys (spath (clone (published (run h))))) ds = true.
Proof.
  rewrite <- (process_ok_iff (clone (published (run h))) (OLocal l) ds (fresh (run h)) [] (run_wf h)).
  cbn [step]. destruct (process (clone (published (run h))) (OLocal l) ds (fresh (run h)) []); cbn [snd is_ok]; split; congruence.
Qed.

(* the live table is not enough: method 1 is still served by connection 1, so its rule at (5, GET) --
   brought by connection 0, which is gone -- still stands, and method 2 cannot take that key *)
Example unobstructed_live_table_insufficient :
  let h := [RegConn 0 (Desc 1 [MDesc 1 1 [Rule (BKey 5 1 true) []]]); RegConn 1 (Desc 2 [MDesc 1 1 []]); DropConn 0] in
  let ds := [MDesc 2 2 [Rule (BKey 5 1 true) []]] in
  map snd (trace h) = [ROk; ROk; RTrue] /\
  unobstructed (live_table (trace h)) ds = true /\
  snd (step (run h) (RegLocal 0 ds)) = RErr /\
  unobstructed_in (trie_keys (spath (clone (published (run h))))) ds = false.
Proof. vm_compute. repeat split; reflexivity. Qed.

Lemma steps_app h1 : forall h2 mx, steps mx (h1 ++ h2) = steps (steps mx h1) h2.
Proof. induction h1 as [|o h1 IH]; intros h2 mx; cbn [app steps]; [reflexivity|apply IH]. Qed.
Lemma hash_ok_app h1 h2 : hash_ok (h1 ++ h2) -> hash_ok h1.
Proof.
  intros HK d1 d2 H1 H2. apply HK; unfold descs_of in *; rewrite flat_map_app; apply in_or_app; now left.
Qed.

Lemma second_backend h c d : hash_ok (h ++ [RegConn c d]) ->
  conn_entries (live_table (trace h)) c = [] ->
  all_bound (spath (clone (published (run h)))) (dmethods d) ->
  snd (step (run h) (RegConn c d)) = ROk /\
  (forall n v, route (fst (step (run h) (RegConn c d))) n v = route (run h) n v) /\
  forall m o, In o (candidates (fst (step (run h) (RegConn c d))) m) <->
              In o (candidates (run h) m) \/ (o = OConn c /\ exposes (dmethods d) m = true).
Proof.
  intros HK E B. set (s := clone (published (run h))).
  pose proof (proj2 (conn_known h c (hash_ok_app _ _ HK)) E) as Hc. fold s in Hc.
  destruct (process_bound (dmethods d) s (OConn c) (fresh (run h)) [] (run_wf h) B) as (s' & P & Et).
  destruct (process_spec _ _ _ _ _ _ _ P) as (_ & _ & P2).
  cbn [step]. fold s. rewrite add_conn_handler_eq. unfold same_hash, remove_handler, create. rewrite Hc. cbn [fst]. rewrite P. cbn [bind fst snd].
  split; [reflexivity|]. split.
  - intros n v. unfold route. cbn [published spath]. rewrite Et. unfold s. destruct (published (run h)); reflexivity.
  - intros m o. rewrite !candidates_clone. cbn [published clone]. fold s.
    rewrite hget_state, P2, map_app, in_app_iff, mk_handlers_owners.
    apply or_iff_compat_l. destruct (exposes (dmethods d) m); cbn; intuition congruence.
Qed.

Lemma reregister_unchanged h1 h2 c d :
  snd (step (run h1) (RegConn c d)) = ROk -> (forall o, In o h2 -> touches c o = false) ->
  let mx := run (h1 ++ RegConn c d :: h2) in
  snd (step mx (RegConn c d)) = ROk /\ clone (published (fst (step mx (RegConn c d)))) = clone (published mx).
Proof.
  intros R F mx. destruct (reg_conn_hash _ _ _ R) as (cl & Hc & Hh).
  apply (reg_conn_again mx c d cl); [|exact Hh].
  unfold mx, run. rewrite steps_app. cbn [steps]. rewrite steps_frame; [exact Hc|exact F].
Qed.
