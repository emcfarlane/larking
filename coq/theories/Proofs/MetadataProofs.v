(* Model/Metadata.v: -bin values decode whether the client padded them or not; `incoming` keeps exactly
   the headers that are whitelisted or not reserved, keys lowered; `set_outgoing` writes every key the
   handler set except the protected ones, by the get/set algebra of hget and hset. *)
From Larking Require Import Base.GoSem Base.B64 Model.Metadata.

Theorem decode_bin_raw m : Forall (fun b => (b < 256)%N) m -> decode_bin (b64_encode false false m) = Some m.
Proof.
  intros H. unfold decode_bin. destruct (Nat.eqb (length (b64_encode false false m) mod 4) 0) eqn:E.
  - apply Nat.eqb_eq in E. rewrite (b64_raw_eq_pad false m E). now apply b64_roundtrip.
  - now apply b64_roundtrip.
Qed.

Theorem decode_any_encode_bin m : Forall (fun b => (b < 256)%N) m -> decode_any (encode_bin m) = Some m.
Proof.
  intros H. unfold decode_any, encode_bin.
  destruct (b64_decode false true (b64_encode false false m)) as [b|] eqn:E; [|now apply b64_roundtrip].
  (* the padded decoder accepts a raw string only when no padding was needed, and then agrees *)
  pose proof (decode_bin_raw m H) as D. unfold decode_bin in D.
  rewrite (b64_decode_pad_len _ _ _ E) in D. cbn [Nat.eqb] in D. congruence.
Qed.

Lemma filter_map_in {A B} (f : A -> option B) l y : In y (filter_map f l) <-> exists x, In x l /\ f x = Some y.
Proof.
  induction l as [|a l IH]; cbn [filter_map].
  - split; [contradiction|intros (x & [] & _)].
  - destruct (f a) as [b|] eqn:E.
    + cbn [In]. rewrite IH. split.
      * intros [->|(x & Hx & Hf)]; [exists a; auto|exists x; auto].
      * intros (x & [->|Hx] & Hf); [left; congruence|right; exists x; auto].
    + rewrite IH. split.
      * intros (x & Hx & Hf). exists x. cbn; auto.
      * intros (x & [->|Hx] & Hf); [congruence|exists x; auto].
Qed.

Theorem incoming_exact h k vs :
  In (k, vs) (incoming h) <->
  exists k0 vs0, In (k0, vs0) h /\ k = lower k0 /\
    (is_reserved k && negb (is_whitelisted k) = false) /\
    vs = (if is_bin k then map (fun v => match decode_bin v with Some b => b | None => [] end) vs0 else vs0).
Proof.
  unfold incoming. rewrite filter_map_in. split.
  - intros ([k0 vs0] & Hin & Hf). unfold incoming_entry in Hf. cbn [fst snd] in Hf.
    destruct (is_reserved (lower k0) && negb (is_whitelisted (lower k0))) eqn:R; [discriminate|].
    exists k0, vs0. destruct (is_bin (lower k0)) eqn:B; inversion Hf; subst; rewrite ?R, ?B; auto.
  - intros (k0 & vs0 & Hin & -> & R & ->). exists (k0, vs0). split; [exact Hin|].
    unfold incoming_entry. cbn [fst snd]. rewrite R. destruct (is_bin (lower k0)); reflexivity.
Qed.

Lemma hget_hset_same k vs h : hget k (hset k vs h) = Some vs.
Proof.
  induction h as [|[k' vs'] r IH]; cbn [hset hget].
  - now rewrite bytes_eqb_refl.
  - destruct (bytes_eqb (lower k') (lower k)) eqn:E; cbn [hget]; rewrite E; auto.
Qed.
Lemma hget_hset_other k k2 vs h : bytes_eqb (lower k) (lower k2) = false -> hget k2 (hset k vs h) = hget k2 h.
Proof.
  intros Hne. induction h as [|[k' vs'] r IH]; cbn [hset hget].
  - rewrite Hne. reflexivity.
  - destruct (bytes_eqb (lower k') (lower k)) eqn:E; cbn [hget].
    + apply bytes_eqb_eq in E. rewrite E, Hne. reflexivity.
    + destruct (bytes_eqb (lower k') (lower k2)); auto.
Qed.

Lemma lower_idem k : lower (lower k) = lower k.
Proof.
  unfold lower. rewrite map_map. apply map_ext. intros c. unfold lower_byte.
  destruct ((65 <=? c)%N && (c <=? 90)%N) eqn:E; [|now rewrite E].
  replace ((65 <=? c + 32)%N && (c + 32 <=? 90)%N) with false by lia. reflexivity.
Qed.

(* a key that no entry of the metadata writes keeps its value *)
Lemma set_outgoing_untouched : forall md h k,
  (forall e, In e md -> outgoing_entry e <> None -> lower (fst e) <> lower k) ->
  hget k (set_outgoing h md) = hget k h.
Proof.
  unfold set_outgoing. induction md as [|[k0 vs0] md IH]; intros h k H; cbn [fold_left]; [reflexivity|].
  rewrite IH by (intros e I; apply H; now right).
  specialize (H (k0, vs0) (or_introl eq_refl)). unfold outgoing_entry in *. cbn [fst snd] in *.
  destruct (is_reserved (lower k0) || is_framing (lower k0)); [reflexivity|].
  assert (bytes_eqb (lower k0) (lower k) = false) by (apply bytes_eqb_neq, H; destruct (is_bin _); discriminate).
  destruct (is_bin (lower k0)); now apply hget_hset_other.
Qed.

(* every other key set by the handler is on the response with all its values, -bin values encoded;
   stated for metadata with distinct keys (metadata.MD is a map) *)
Theorem outgoing_complete : forall md h k vs,
  NoDup (map (fun e => lower (fst e)) md) -> In (k, vs) md ->
  is_reserved (lower k) || is_framing (lower k) = false ->
  hget k (set_outgoing h md) = Some (out_vals k vs).
Proof.
  induction md as [|[k0 vs0] md IH]; intros h k vs Hnd Hin Hk; [contradiction|].
  cbn [map fst] in Hnd. inversion Hnd as [|? ? Hnotin Hnd']; subst.
  change (set_outgoing h ((k0, vs0) :: md))
    with (set_outgoing (match outgoing_entry (k0, vs0) with Some (k1, vs1) => hset k1 vs1 h | None => h end) md).
  destruct Hin as [E|Hin]; [|now apply IH].
  inversion E; subst k0 vs0. rewrite set_outgoing_untouched.
  - unfold outgoing_entry, out_vals. cbn [fst snd]. rewrite Hk. destruct (is_bin (lower k)); apply hget_hset_same.
  - intros e I _ Eq. apply Hnotin. rewrite <- Eq. exact (in_map (fun e => lower (fst e)) _ _ I).
Qed.

Lemma has_prefix_app p k : has_prefix p (p ++ k) = true.
Proof. unfold has_prefix. rewrite firstn_app_exact. apply bytes_eqb_refl. Qed.
