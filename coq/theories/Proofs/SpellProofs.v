(* Reading a covering back as text: the request path is the template with each variable replaced
   by its capture. *)
From Larking Require Import Base.GoSem Model.Lexer Model.Trie Model.Match Spec.Grammar Spec.Route Spec.Template
  Proofs.LexerProofs Proofs.TrieProofs Proofs.RoutingProofs Proofs.TemplateInstProofs.
Local Open Scope N_scope.

Section Spell.
Variables isLetter isNumber : N -> bool.
Notation PathToks := (PathToks isLetter isNumber).
Notation PSeg := (PSeg isLetter isNumber).
Notation PSegs := (PSegs isLetter isNumber).
Notation Good := (Good isLetter isNumber).

(* a pattern of the grammar renders a non-empty list of plain segments *)
Lemma PSegs_pat_toks pat b : PSegs pat b -> exists ps, ps <> [] /\ pat = pat_toks ps.
Proof.
  assert (H1 : forall ts b, PSeg ts b -> exists p, ts = [pseg_tok p]).
  { intros ts b0 [v Hv| |]; [exists (PLit v)|exists PStar|exists PStarStar]; reflexivity. }
  induction 1 as [ts b G|ts rest b G HS (ps & Hn & ->)]; destruct (H1 _ _ G) as [p ->].
  - exists [p]. split; [discriminate|reflexivity].
  - exists (p :: ps). split; [discriminate|]. unfold pat_toks. rewrite sl_toks_cons. cbn [tl app].
    now rewrite (sl_toks_tl ps Hn).
Qed.

Theorem covering_spells_path es : forall toks caps,
  Forall (edge_gram isLetter isNumber) es -> Good toks -> MatchEdges es toks caps -> fill es (rev caps) = Some (spell toks).
Proof.
  intros toks caps Hg HG HM. revert Hg HG.
  induction HM as [toks Hl|t0 t1 rest es caps HM IH|pat t0 c z es caps Ht Hne HMP HM IH]; intros Hg HG.
  - cbn. destruct HG as [->|HP]; [reflexivity|]. now rewrite (PathToks_short _ _ _ HP Hl).
  - inversion Hg; subst. destruct HG as [HG|HP]; [discriminate|].
    inversion HP as [|v r Hv Hp Hr|v r Hv Hp Hr]; subst; cbn [fill]; rewrite (IH H2 (or_intror Hr)); reflexivity.
  - inversion Hg as [|e l He Hg']; subst. destruct He as [b Hb]. destruct HG as [HG|HP]; [discriminate HG|].
    destruct (PSegs_pat_toks _ _ Hb) as (ps & Hn & ->).
    destruct (PathToks_slash _ _ _ _ HP Ht) as (w & r & -> & _).
    assert (M : MatchPat (sl_toks ps) (tSlash :: c) z) by (rewrite (sl_toks_tl ps Hn); now apply MP_slash).
    rewrite rev_app_distr. cbn [rev app fill]. rewrite (IH Hg' (pat_residue _ _ ps (tSlash :: c) z M HP)).
    now rewrite spell_cons, spell_app.
Qed.

End Spell.

(* the request path read back from the dispatch: the (normalised) path is the registered template's
   edge sequence with every literal edge spelled as registered and every variable edge replaced by
   "/" and its capture -- nothing else, nothing missing *)
Theorem path_is_instance :
  forall isLetter isNumber resolves okconv, Sane isLetter isNumber ->
  forall L root verb p m caps,
  Inv isLetter isNumber resolves L root -> route okconv isLetter isNumber root verb p = Ok (m, caps) ->
  exists mid b es,
    In (mid, b) L /\ m_id m = mid /\ covers_verb (b_verb b) verb /\
    compiled isLetter isNumber resolves mid b es (m_vars m) /\
    fill es (rev caps) = Some (normalise p).
Proof.
  intros isLetter isNumber resolves okconv sane L root verb p m caps HI H.
  destruct (dispatch_sound isLetter isNumber resolves okconv sane L root verb p m caps HI H)
    as (mid & b & es & toks & A & B & C & D & E & F & G).
  exists mid, b, es. split; [exact A|]. split; [exact B|]. split; [exact C|]. split; [exact E|].
  assert (Hes : Forall (edge_gram isLetter isNumber) es).
  { destruct E as (toks' & E1 & E2).
    pose proof (compile_tmpl isLetter isNumber resolves toks' mid (proj1 (lex_template_sound _ _ _ _ E1))) as Hg.
    rewrite E2 in Hg. now destruct Hg. }
  destruct (lex_path_sound _ _ _ _ F) as (HP & Hsp & _).
  rewrite <- Hsp. apply (covering_spells_path isLetter isNumber); [exact Hes|right; exact HP|exact G].
Qed.
