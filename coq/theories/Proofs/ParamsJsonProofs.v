(* The conversion algorithm of Model/Params.v for bool / integer / enum-name text accepts exactly
   the texts of the grammar of Spec/Json3.v, with the same value. *)
From Larking Require Import Base.GoSem Model.Schema Model.Params Spec.Json3.
Local Open Scope N_scope.

Definition notws (c : N) : Prop := is_json_ws c = false.

Lemma is_json_ws_iff c : is_json_ws c = true <-> j3_ws c.
Proof.
  unfold is_json_ws, j3_ws. rewrite !orb_true_iff, !N.eqb_eq. tauto.
Qed.

Lemma drop_ws_app_ws w s : Forall j3_ws w -> drop_ws (w ++ s) = drop_ws s.
Proof.
  induction 1 as [|c w Hc _ IH]; cbn [app drop_ws]; auto.
  apply is_json_ws_iff in Hc. rewrite Hc. exact IH.
Qed.

Definition hd_ok (b : bytes) : Prop := match b with c :: _ => notws c | [] => False end.

Lemma hd_ok_drop b x : hd_ok b -> drop_ws (b ++ x) = b ++ x.
Proof.
  destruct b as [|c r]; cbn [hd_ok app drop_ws]; [tauto|].
  unfold notws. intros E. rewrite E. reflexivity.
Qed.

Lemma Forall_hd_ok b : Forall notws b -> b <> [] -> hd_ok b.
Proof.
  intros H Hne. destruct H as [|c r Hc Hr]; [congruence|]. exact Hc.
Qed.

(* w1 b w2 with b non-empty and free of white space at both ends (here: everywhere) trims to b *)
Lemma trim_ws_padded w1 b w2 :
  Forall j3_ws w1 -> Forall j3_ws w2 -> Forall notws b -> b <> [] -> trim_ws (w1 ++ b ++ w2) = b.
Proof.
  intros H1 H2 Hb Hne. unfold trim_ws.
  rewrite drop_ws_app_ws by assumption.
  rewrite hd_ok_drop by (apply Forall_hd_ok; assumption).
  rewrite rev_app_distr.
  rewrite drop_ws_app_ws by (apply Forall_rev; assumption).
  assert (Hh : hd_ok (rev b)).
  { apply Forall_hd_ok; [apply Forall_rev; assumption|].
    intros E. apply Hne. rewrite <- (rev_involutive b), E. reflexivity. }
  pose proof (hd_ok_drop (rev b) [] Hh) as E. rewrite app_nil_r in E. rewrite E.
  apply rev_involutive.
Qed.

Lemma drop_ws_split s : exists w, Forall j3_ws w /\ s = w ++ drop_ws s.
Proof.
  induction s as [|c r IH]; cbn [drop_ws].
  - exists []. split; [constructor|reflexivity].
  - destruct (is_json_ws c) eqn:E.
    + destruct IH as (w & Hw & Hs). exists (c :: w). split.
      * constructor; [apply is_json_ws_iff; exact E|exact Hw].
      * cbn [app]. f_equal. exact Hs.
    + exists []. split; [constructor|reflexivity].
Qed.

Lemma trim_ws_split raw :
  exists w1 w2, Forall j3_ws w1 /\ Forall j3_ws w2 /\ raw = w1 ++ trim_ws raw ++ w2.
Proof.
  destruct (drop_ws_split raw) as (w1 & H1 & E1).
  destruct (drop_ws_split (rev (drop_ws raw))) as (w & Hw & E2).
  exists w1, (rev w). split; [exact H1|]. split; [apply Forall_rev; exact Hw|].
  unfold trim_ws. rewrite <- rev_app_distr, <- E2, rev_involutive. exact E1.
Qed.

Lemma padded_trim (body : bytes -> Prop) raw :
  (forall b, body b -> Forall notws b /\ b <> []) -> (padded body raw <-> body (trim_ws raw)).
Proof.
  intros Hn. split.
  - intros (w1 & b & w2 & -> & H1 & H2 & Hb). destruct (Hn b Hb) as [Hw Hne].
    rewrite trim_ws_padded by assumption. exact Hb.
  - intros Hb. destruct (trim_ws_split raw) as (w1 & w2 & H1 & H2 & E). exists w1, (trim_ws raw), w2. auto.
Qed.

Lemma digits_val_pos : forall s acc,
  digits_val acc s = (acc * 10 ^ Z.of_nat (length s) + pos_value s)%Z.
Proof.
  induction s as [|c r IH]; intros acc; cbn [digits_val pos_value length].
  - change (Z.of_nat 0) with 0%Z. rewrite Z.pow_0_r. ring.
  - rewrite IH, Nat2Z.inj_succ, Z.pow_succ_r by apply Nat2Z.is_nonneg. ring.
Qed.

Lemma digits_val_0 s : digits_val 0 s = pos_value s.
Proof. rewrite digits_val_pos. ring. Qed.

Lemma is_digit_iff c : is_digit c = true <-> j3_digit c.
Proof. unfold is_digit, j3_digit. rewrite andb_true_iff, !N.leb_le. tauto. Qed.

Lemma forallb_digit s : forallb is_digit s = true <-> Forall j3_digit s.
Proof.
  induction s as [|c r IH]; cbn [forallb].
  - split; auto.
  - rewrite andb_true_iff, is_digit_iff, IH. split.
    + intros [? ?]; constructor; assumption.
    + intros H; inversion H; auto.
Qed.

Lemma nat_text_iff n s : nat_text n s <-> is_nat_lit s = true /\ digits_val 0 s = n.
Proof.
  rewrite digits_val_0. unfold nat_text. destruct s as [|c r].
  - cbn [is_nat_lit]. split; [intros (H & _); congruence|intros [H _]; discriminate].
  - unfold is_nat_lit. rewrite andb_true_iff, orb_true_iff, forallb_digit, negb_true_iff, N.eqb_neq.
    cbn [hd length]. split.
    + intros (_ & HF & Hz & Hv). split; [|exact Hv]. split; [exact HF|].
      destruct Hz as [Hz|Hz]; [right|left; exact Hz]. destruct r; [reflexivity|cbn [length] in Hz; lia].
    + intros ((HF & Hz) & Hv). split; [discriminate|]. split; [exact HF|]. split; [|exact Hv].
      destruct Hz as [Hz|Hz]; [right; exact Hz|left]. destruct r; [reflexivity|discriminate].
Qed.

Lemma digit_notws c : j3_digit c -> notws c.
Proof.
  unfold j3_digit, notws, is_json_ws. intros [H1 H2].
  destruct (N.eqb_spec c 32), (N.eqb_spec c 9), (N.eqb_spec c 10), (N.eqb_spec c 13);
    try reflexivity; exfalso; lia.
Qed.

Lemma digit_not_minus c : j3_digit c -> (c =? 45) = false.
Proof. unfold j3_digit. intros [H1 H2]. apply N.eqb_neq. lia. Qed.

Lemma digits_not_null ds : Forall j3_digit ds -> bytes_eqb ds lit_null = false.
Proof.
  intros H. destruct (bytes_eqb ds lit_null) eqn:E; [|reflexivity].
  apply bytes_eqb_eq in E. subst ds. unfold lit_null in H.
  inversion H as [|? ? Hd _]. unfold j3_digit in Hd. exfalso. lia.
Qed.

Ltac closed_notws := repeat (apply Forall_cons; [vm_compute; reflexivity|]); apply Forall_nil.

Lemma null_notws : Forall notws t_null.
Proof. unfold t_null. closed_notws. Qed.

Lemma int_body_notws u z b : int_body u z b -> Forall notws b /\ b <> [].
Proof.
  intros Hb. destruct Hb as [|n ds Hn|n ds Hu Hn].
  - split; [apply null_notws|discriminate].
  - destruct Hn as (Hne & HF & _). split; [|exact Hne].
    apply (Forall_impl _ digit_notws). exact HF.
  - destruct Hn as (Hne & HF & _). split; [|discriminate].
    apply Forall_cons; [vm_compute; reflexivity|].
    apply (Forall_impl _ digit_notws). exact HF.
Qed.

Definition int_core (unsigned : bool) (lo hi : Z) (t : bytes) : option Z :=
  if bytes_eqb t lit_null then Some 0%Z
  else match int_lit t with
       | Some z => if unsigned && has_minus t then None
                   else if (lo <=? z)%Z && (z <=? hi)%Z then Some z else None
       | None => None
       end.

Lemma json_int_core u lo hi raw : json_int u lo hi raw = int_core u lo hi (trim_ws raw).
Proof. reflexivity. Qed.

Lemma nat_text_no_minus n ds : nat_text n ds -> has_minus ds = false.
Proof.
  intros (_ & HF & _). destruct HF as [|c r Hc _]; [reflexivity|]. apply digit_not_minus. exact Hc.
Qed.

(* the literal strconv accepts: digits, or '-' and digits *)
Lemma int_lit_iff t z : int_lit t = Some z <->
  (has_minus t = false /\ nat_text z t) \/ (exists ds, t = 45 :: ds /\ nat_text (- z) ds).
Proof.
  destruct t as [|c r]; cbn [int_lit has_minus].
  - split; [discriminate|]. intros [[_ (H & _)]|[ds [H _]]]; [congruence|discriminate].
  - destruct (c =? 45) eqn:Ec; split.
    + destruct (is_nat_lit r) eqn:Hn; [|discriminate]. intros H. inversion H. right.
      apply N.eqb_eq in Ec. subst c. exists r. split; [reflexivity|]. apply nat_text_iff. split; [exact Hn|lia].
    + intros [[X _]|[ds [E Hn]]]; [discriminate|]. inversion E; subst ds.
      apply nat_text_iff in Hn. destruct Hn as [Hn Hv]. rewrite Hn. f_equal. lia.
    + destruct (is_nat_lit (c :: r)) eqn:Hn; [|discriminate]. intros H. inversion H. left.
      split; [reflexivity|]. apply nat_text_iff. split; [exact Hn|reflexivity].
    + intros [[_ Hn]|[ds [E _]]].
      * apply nat_text_iff in Hn. destruct Hn as [Hn Hv]. rewrite Hn, Hv. reflexivity.
      * inversion E; subst c. discriminate.
Qed.

Lemma int_core_sound u lo hi t z :
  (lo <= 0 <= hi)%Z -> int_core u lo hi t = Some z -> int_body u z t /\ (lo <= z <= hi)%Z.
Proof.
  unfold int_core. intros H0 H.
  destruct (bytes_eqb t lit_null) eqn:En.
  - apply bytes_eqb_eq in En. inversion H; subst. split; [apply ib_null|exact H0].
  - destruct (int_lit t) as [z0|] eqn:El; [|discriminate]. apply int_lit_iff in El.
    destruct (u && has_minus t) eqn:Eu; [discriminate|].
    destruct ((lo <=? z0)%Z && (z0 <=? hi)%Z) eqn:Er; [|discriminate]. inversion H; subst z0.
    apply andb_true_iff in Er. rewrite !Z.leb_le in Er. split; [|exact Er].
    destruct El as [[_ Hn]|[ds [-> Hn]]]; [apply ib_pos; exact Hn|].
    rewrite <- (Z.opp_involutive z). apply ib_neg; [|exact Hn].
    cbn [has_minus] in Eu. rewrite N.eqb_refl, andb_true_r in Eu. exact Eu.
Qed.

Lemma int_core_complete u lo hi t z :
  int_body u z t -> (lo <= z <= hi)%Z -> int_core u lo hi t = Some z.
Proof.
  intros Hb Hr. assert (R : (lo <=? z)%Z && (z <=? hi)%Z = true) by (apply andb_true_iff; rewrite !Z.leb_le; exact Hr).
  unfold int_core. destruct Hb as [|n ds Hn|n ds Hu Hn].
  - reflexivity.
  - rewrite (digits_not_null ds (proj1 (proj2 Hn))), (nat_text_no_minus n ds Hn), andb_false_r.
    rewrite (proj2 (int_lit_iff ds n) (or_introl (conj (nat_text_no_minus n ds Hn) Hn))), R. reflexivity.
  - replace (bytes_eqb (45 :: ds) lit_null) with false by reflexivity. subst u. cbn [andb].
    rewrite <- (Z.opp_involutive n) in Hn.
    rewrite (proj2 (int_lit_iff (45 :: ds) (- n)) (or_intror (ex_intro _ ds (conj eq_refl Hn)))), R. reflexivity.
Qed.

Theorem json_int_exact : forall unsigned lo hi raw z, (lo <= 0 <= hi)%Z ->
  (json_int unsigned lo hi raw = Some z <-> json3_int unsigned lo hi z raw).
Proof.
  intros u lo hi raw z H0. rewrite json_int_core. unfold json3_int.
  rewrite (padded_trim _ raw (int_body_notws u z)). split.
  - apply int_core_sound, H0.
  - intros [Hb Hr]. apply int_core_complete; assumption.
Qed.

Definition bool_core (t : bytes) : option bool :=
  if bytes_eqb t lit_true then Some true
  else if bytes_eqb t lit_false then Some false
  else if bytes_eqb t lit_null then Some false
  else None.

Lemma json_bool_core raw : json_bool raw = bool_core (trim_ws raw).
Proof. reflexivity. Qed.

Lemma bool_body_notws v b : bool_body v b -> Forall notws b /\ b <> [].
Proof.
  intros Hb. destruct Hb; (split; [|discriminate]).
  - unfold t_true. closed_notws.
  - unfold t_false. closed_notws.
  - apply null_notws.
Qed.

Theorem json_bool_exact : forall raw b, json_bool raw = Some b <-> json3_bool b raw.
Proof.
  intros raw b. rewrite json_bool_core. unfold json3_bool. rewrite (padded_trim _ raw (bool_body_notws b)).
  unfold bool_core. split.
  - destruct (bytes_eqb (trim_ws raw) lit_true) eqn:E1.
    { apply bytes_eqb_eq in E1. rewrite E1. intros H. inversion H. apply bb_true. }
    destruct (bytes_eqb (trim_ws raw) lit_false) eqn:E2.
    { apply bytes_eqb_eq in E2. rewrite E2. intros H. inversion H. apply bb_false. }
    destruct (bytes_eqb (trim_ws raw) lit_null) eqn:E3; [|discriminate].
    apply bytes_eqb_eq in E3. rewrite E3. intros H. inversion H. apply bb_null.
  - intros Hb. destruct Hb; reflexivity.
Qed.

Theorem enum_by_name_exact : forall vals s z, enum_by_name vals s = Some z <-> name_text vals z s.
Proof.
  intros vals s z. unfold name_text. split.
  - induction vals as [|[n z0] r IH]; cbn [enum_by_name]; [discriminate|].
    destruct (bytes_eqb n s) eqn:En.
    + apply bytes_eqb_eq in En. subst n. intros H. inversion H; subst z0.
      exists [], r. split; [reflexivity|intros nz []].
    + intros H. destruct (IH H) as (l1 & l2 & -> & Hl). exists ((n, z0) :: l1), l2. split; [reflexivity|].
      intros nz [<-|Hin]; [apply bytes_eqb_neq, En|exact (Hl nz Hin)].
  - intros (l1 & l2 & -> & Hl). induction l1 as [|[n z0] l1 IH]; cbn [app enum_by_name].
    + rewrite bytes_eqb_refl. reflexivity.
    + rewrite (proj2 (bytes_eqb_neq n s) (Hl (n, z0) (or_introl eq_refl))).
      apply IH. intros nz Hin. apply Hl. right. exact Hin.
Qed.

Lemma iclass_range c : (iclass_lo c <= 0 <= iclass_hi c)%Z.
Proof. destruct c; split; apply Z.leb_le; vm_compute; reflexivity. Qed.

Corollary json_iclass_exact : forall c raw z,
  json_iclass c raw = Some z <->
  json3_int (iclass_unsigned c) (iclass_lo c) (iclass_hi c) z raw.
Proof.
  intros c raw z. unfold json_iclass. apply json_int_exact. apply iclass_range.
Qed.

Print Assumptions json_int_exact.
Print Assumptions json_bool_exact.
Print Assumptions enum_by_name_exact.
Print Assumptions json_iclass_exact.
