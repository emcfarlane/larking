(* The guarded discipline of Model/Barrier.v never misuses the WaitGroup, whatever the interleaving; the pinned
   discipline does, on a two-event schedule. *)
From Coq Require Import List Bool Lia.
Import ListNotations.
From Larking Require Import Model.Barrier.

(* invariant of the guarded discipline along a schedule whose Waits come after a Close:
   a Wait in progress implies closed, and no misuse so far *)
Definition BInv (s : bstate) (seen_close : bool) : Prop :=
  misuse s = false /\ (waiting s = true -> closed s = true) /\ (seen_close = true -> closed s = true).

Lemma bstep_inv s e seen : BInv s seen ->
  closes_before_wait seen [e] = true ->
  BInv (bstep true s e) (match e with EvClose => true | _ => seen end).
Proof.
  intros (Hm & Hw & Hc) Hord. destruct e; cbn [bstep andb closes_before_wait] in *.
  - destruct (closed s) eqn:Ec; cbn [closed waiting count misuse].
    + repeat split; auto.
    + repeat split; cbn [closed waiting count misuse]; auto.
      rewrite Hm. cbn [orb]. destruct (waiting s) eqn:Ew; [|reflexivity]. specialize (Hw eq_refl). congruence.
  - repeat split; cbn [closed waiting count misuse]; auto.
  - repeat split; cbn [closed waiting count misuse]; auto.
  - apply andb_true_iff in Hord. destruct Hord as [Hs _]. repeat split; cbn [closed waiting count misuse]; auto.
  - destruct (Nat.eqb (count s) 0); repeat split; cbn [closed waiting count misuse]; auto. intro; discriminate.
Qed.

Lemma closes_before_wait_cons seen e r : closes_before_wait seen (e :: r) = true ->
  closes_before_wait seen [e] = true /\ closes_before_wait (match e with EvClose => true | _ => seen end) r = true.
Proof.
  destruct e; cbn [closes_before_wait]; intro H; try (split; [reflexivity|exact H]).
  apply andb_true_iff in H. destruct H as [A B]. split; [rewrite A; reflexivity|exact B].
Qed.

Lemma brun_inv es : forall s seen, BInv s seen -> closes_before_wait seen es = true ->
  misuse (fold_left (bstep true) es s) = false.
Proof.
  induction es as [|e r IH]; intros s seen HI Hord; cbn [fold_left].
  - apply HI.
  - destruct (closes_before_wait_cons _ _ _ Hord) as [H1 H2]. eapply IH; [apply bstep_inv; eassumption|exact H2].
Qed.

(* after the close no operation gets in: the counter only falls, so the Wait that follows returns *)
Lemma enter_after_close_refused s : closed s = true -> count (bstep true s EvEnter) = count s /\ refused (bstep true s EvEnter) = S (refused s).
Proof. intro H. cbn [bstep andb]. rewrite H. split; reflexivity. Qed.

Lemma closed_stays es : forall s, closed s = true -> closed (fold_left (bstep true) es s) = true.
Proof.
  induction es as [|e r IH]; intros s H; cbn [fold_left]; [exact H|]. apply IH.
  destruct e; cbn [bstep andb]; try exact H; try reflexivity.
  - rewrite H. reflexivity.
  - destruct (Nat.eqb (count s) 0); exact H.
Qed.

Lemma count_falls_after_close es : forall s, closed s = true -> count (fold_left (bstep true) es s) <= count s.
Proof.
  induction es as [|e r IH]; intros s H; cbn [fold_left]; [lia|].
  assert (Hc : closed (bstep true s e) = true) by (apply (closed_stays [e]); exact H).
  specialize (IH _ Hc). assert (count (bstep true s e) <= count s); [|lia].
  destruct e; cbn [bstep andb]; try rewrite H; cbn [count]; try lia. destruct (Nat.eqb (count s) 0); cbn [count]; lia.
Qed.

(* the pinned discipline: the handler has returned, the serving function waits, the pump enters its next RecvMsg *)
Theorem unguarded_barrier_refuted : exists es, closes_before_wait false es = false /\ misuse (brun false es) = true.
Proof. exists [EvWaitBegin; EvEnter]. split; reflexivity. Qed.

(* non-vacuity: a schedule with operations in flight across the close *)
Example guarded_schedule :
  let es := [EvEnter; EvEnter; EvLeave; EvClose; EvEnter; EvWaitBegin; EvEnter; EvLeave; EvWaitEnd] in
  closes_before_wait false es = true /\ brun true es = BState true false 0 false 2.
Proof. split; reflexivity. Qed.
