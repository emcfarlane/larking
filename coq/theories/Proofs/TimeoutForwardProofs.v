(* grpc-go's EncodeDuration (Model/TimeoutForward.v): the forwarded value covers the time left and
   exceeds it by less than one unit of the unit chosen, in at most eight digits; decoded again by
   Model/Timeout.v it stays within the timeout the caller came with. `finer a b`: unit a divides b. *)
From Coq Require Import ZArith List Lia Sorting.Sorted.
From Larking Require Import Model.TimeoutForward Model.Timeout Proofs.TimeoutProofs.
Import ListNotations.
Local Open Scope Z_scope.

Lemma div_up_spec d r : 0 < r -> d <= div_up d r * r < d + r.
Proof.
  intros Hr. unfold div_up.
  pose proof (Z.div_mod d r ltac:(lia)) as E. pose proof (Z.mod_pos_bound d r Hr) as B.
  destruct (0 <? d mod r) eqn:C; [apply Z.ltb_lt in C | apply Z.ltb_ge in C]; nia.
Qed.

Lemma div_up_le d u q : 0 < u -> d <= q * u -> div_up d u <= q.
Proof.
  intros Hu H. pose proof (div_up_spec d u Hu) as [_ S].
  assert (div_up d u * u < (q + 1) * u) by nia. nia.
Qed.

Lemma div_up_pos d u : 0 < u -> 0 < d -> 0 < div_up d u.
Proof. intros Hu Hd. pose proof (div_up_spec d u Hu). nia. Qed.

(* what encode_in returns: the value rounded up in a unit of the list in which it fits, or in hours *)
Lemma encode_in_shape us t v u : encode_in us t = (v, u) ->
  (In u us /\ v <= max_timeout_value \/ u = hour_ns) /\ v = div_up t u.
Proof.
  revert v u; induction us as [|a r IH]; cbn [encode_in]; intros v u E.
  - injection E as <- <-. auto.
  - destruct (div_up t a <=? max_timeout_value) eqn:C.
    + injection E as <- <-. split; [left; split; [now left|lia]|reflexivity].
    + destruct (IH _ _ E) as [[[I V] | I] D]; auto. split; [left; split; [now right|exact V]|exact D].
Qed.

Lemma fwd_unit_pos u : In u fwd_units \/ u = hour_ns -> 0 < u.
Proof. unfold fwd_units, hour_ns. cbn [In]. lia. Qed.

(* the backend is never given less than the time that was left, and less than one unit more *)
Lemma forwarded_sound t : 0 < t ->
  let (v, u) := encode_duration t in t <= v * u < t + u /\ 0 < v.
Proof.
  intros Ht. unfold encode_duration. replace (t <=? 0) with false by lia.
  destruct (encode_in fwd_units t) as [v u] eqn:E.
  destruct (encode_in_shape _ _ _ _ E) as [I ->]. assert (Hu : 0 < u) by (apply fwd_unit_pos; tauto).
  split; [apply div_up_spec; lia | apply div_up_pos; lia].
Qed.

(* every value but an hour count fits the eight digits of the wire grammar *)
Lemma forwarded_value_fits t : 0 < t -> t <= max_timeout_value * hour_ns ->
  let (v, _) := encode_duration t in v <= max_timeout_value.
Proof.
  intros Ht Hmax. unfold encode_duration. replace (t <=? 0) with false by lia.
  destruct (encode_in fwd_units t) as [v u] eqn:E.
  destruct (encode_in_shape _ _ _ _ E) as [[[_ V] | ->] ->]; [exact V|].
  apply div_up_le; unfold hour_ns in *; lia.
Qed.

(* the unit chosen comes no later in the list than any unit in which the time left fits *)
Lemma encode_in_first us t v u : encode_in us t = (v, u) ->
  forall w, In w us -> div_up t w <= max_timeout_value -> exists pre post, us = pre ++ w :: post /\ (In u pre \/ u = w).
Proof.
  revert v u; induction us as [|a r IH]; cbn [encode_in]; intros v u E w I Hw; [destruct I|].
  destruct (div_up t a <=? max_timeout_value) eqn:C.
  - injection E as <- <-. destruct I as [-> | I].
    + exists [], r. split; [reflexivity | right; reflexivity].
    + destruct (in_split _ _ I) as (p & q & ->). exists (a :: p), q. split; [reflexivity | left; left; reflexivity].
  - destruct I as [-> | I]; [apply Z.leb_gt in C; lia|].
    destruct (IH _ _ E w I Hw) as (p & q & -> & D). exists (a :: p), q. split; [reflexivity|].
    destruct D as [D | D]; [left; right; exact D | right; exact D].
Qed.

(* Each unit divides every coarser one. That is why rounding up in the unit chosen, which is the finest that fits
   and hence no coarser than the caller's, stays within a bound given in the caller's unit. *)
Definition finer (a b : Z) := 0 < a /\ (a | b).
Lemma units_sorted : StronglySorted finer (fwd_units ++ [hour_ns]).
Proof.
  unfold fwd_units, hour_ns. cbn [app].
  repeat (apply SSorted_cons; [|repeat (apply Forall_cons; [split; [lia|apply Z.mod_divide; [lia|reflexivity]]|]); apply Forall_nil]).
  apply SSorted_nil.
Qed.

Lemma within_unit t k a u : 0 < u -> 0 < a -> (a | u) -> t <= k * u -> div_up t a * a <= k * u.
Proof.
  intros Hu Ha [c ->] H. assert (0 < c) by nia.
  assert (div_up t a <= k * c) by (apply div_up_le; nia). nia.
Qed.

Lemma encode_in_within t k u : 0 < u -> k <= max_timeout_value -> t <= k * u ->
  forall us, StronglySorted finer (us ++ [hour_ns]) -> In u (us ++ [hour_ns]) ->
  let (v, a) := encode_in us t in v * a <= k * u.
Proof.
  intros Hu Hk Hle. induction us as [|a r IH]; cbn [encode_in app]; intros S I.
  - destruct I as [<-|[]]. apply within_unit; auto; reflexivity.
  - inversion S as [|? ? S' F]; subst. destruct (div_up t a <=? max_timeout_value) eqn:C.
    + destruct I as [->|I]; [apply within_unit; auto; reflexivity|].
      rewrite Forall_forall in F. destruct (F _ I). now apply within_unit.
    + destruct I as [->|I]; [|now apply IH].
      (* the caller's own unit fits *)
      assert (div_up t u <= k) by (apply div_up_le; lia). lia.
Qed.

(* The deadline is never extended: a call that came with T = k units (a legal grpc-timeout: k of at most eight digits)
   and has t of it left is forwarded with at most T. *)
Lemma forwarded_within_original t k u :
  0 < t -> legal_unit u = true -> 1 <= k <= max_timeout_value -> t <= k * u -> forwarded_ns t <= k * u.
Proof.
  intros Ht Hu Hk Hle. unfold forwarded_ns, encode_duration. replace (t <=? 0) with false by lia.
  unfold legal_unit in Hu.
  pose proof (encode_in_within t k u ltac:(lia) ltac:(lia) Hle fwd_units units_sorted) as W.
  destruct (encode_in fwd_units t). apply W. unfold fwd_units, hour_ns. cbn [app In]. lia.
Qed.

(* non-vacuity and two evaluations: 1 s with 0.9995 s left goes out as 999500 us; an hour count of eight digits with a
   millisecond gone still goes out within it *)
Example forwarded_examples :
  encode_duration 999500000 = (999500, 1000) /\ encode_duration 99999999 = (99999999, 1) /\ encode_duration 100000000 = (100000, 1000) /\
  forwarded_ns (99999999 * 3600000000000 - 1000000) <= 99999999 * 3600000000000 /\ encode_duration 0 = (0, 1).
Proof. vm_compute. repeat split; discriminate. Qed.

(* joined with the decoder of Model/Timeout.v: the caller's own timeout string *)

Lemma unit_ns_legal_unit c d : unit_ns c = Some d -> legal_unit d = true.
Proof. intros H. apply unit_ns_cases in H. unfold legal_unit. cbn [In] in H. lia. Qed.

(* a call that came with the legal timeout string s (T nanoseconds, below the clamp) and has t of it left is forwarded
   to the backend with at most T *)
Lemma proxied_deadline_within_callers s T t :
  decode_timeout s = Some T -> T < max_i64 -> 0 < t <= T -> forwarded_ns t <= T.
Proof.
  intros D Hc Ht. apply decode_timeout_sound in D. destruct D as (ds & u & d & _ & Hl & Hd & Hu & ->).
  pose proof (digits_val_8 ds Hd ltac:(lia)) as B. pose proof (unit_ns_pos _ _ Hu) as Pd.
  rewrite Z.min_l in * by lia.
  apply forwarded_within_original; [lia | eapply unit_ns_legal_unit; eassumption | unfold max_timeout_value; nia | lia].
Qed.
