(* C03: repeated query keys (Append order) and oneof siblings.

   The model renders both: params.set appends for a repeated last field (Schema.append_field) and
   Set / Mutable clear the other members of a oneof (Schema.clear_sibs inside set_field and
   mutable_msg).  Iterations for field paths that do not touch each other commute up to extensional
   equality of the flattened messages, so params.set builds the same message from every list that
   keeps, per client-side leaf, the values in order. *)
From Coq Require Import Permutation.
From Larking Require Import Base.GoSem Model.Schema Model.Params Model.Transcode
  Proofs.ParamsProofs Proofs.RoundtripProofs.
Local Open Scope N_scope.

Definition meq (M N : msg) : Prop := forall q, lookup q M = lookup q N.

Lemma meq_refl M : meq M M.
Proof. intros q. reflexivity. Qed.
Lemma meq_sym M N : meq M N -> meq N M.
Proof. intros H q. symmetry. apply H. Qed.
Lemma meq_trans M N P : meq M N -> meq N P -> meq M P.
Proof. intros H1 H2 q. rewrite H1. apply H2. Qed.

Definition agree_under (p : path) (M N : msg) : Prop := forall r, lookup (p ++ r) M = lookup (p ++ r) N.

Lemma clears_agree st rest pp M N :
  lookup (pp ++ [step_num st]) M = lookup (pp ++ [step_num st]) N -> clears st rest pp M = clears st rest pp N.
Proof. intros H. unfold clears, fresh. rewrite H. reflexivity. Qed.

Lemma walk_t_local : forall rest st pp v M N,
  agree_under (pp ++ [step_num st]) M N ->
  agree_under (pp ++ [step_num st]) (walk_t (st :: rest) pp v M) (walk_t (st :: rest) pp v N).
Proof.
  induction rest as [|st2 rest2 IH]; intros st pp v M N H r.
  - cbn [walk_t]. destruct (f_card (snd st)); try (rewrite !lookup_set_field; reflexivity).
    pose proof (H []) as H0. rewrite app_nil_r in H0. rewrite !lookup_append_field, H0, (H r). reflexivity.
  - rewrite !(walk_t_cons st) by discriminate. set (p := pp ++ [step_num st]).
    assert (A1 : agree_under p (mutable_msg st pp M) (mutable_msg st pp N)).
    { intros [|a x]; unfold p.
      - rewrite app_nil_r, !lookup_mutable_self. reflexivity.
      - rewrite !lookup_mutable_below. apply H. }
    destruct (is_prefix (p ++ [step_num st2]) (p ++ r)) eqn:E.
    + apply is_prefix_spec in E. destruct E as [r2 E]. rewrite E.
      apply IH. intros x. rewrite <- !app_assoc. apply A1.
    + rewrite !walk_t_outside by exact E.
      rewrite (clears_agree st2 rest2 p _ _ (A1 [step_num st2])), (A1 r). reflexivity.
Qed.

Lemma walk_t_meq st rest pp v M N : meq M N -> meq (walk_t (st :: rest) pp v M) (walk_t (st :: rest) pp v N).
Proof.
  intros H q. destruct (is_prefix (pp ++ [step_num st]) q) eqn:E.
  - apply is_prefix_spec in E. destruct E as [r ->]. apply walk_t_local. intros x. apply H.
  - rewrite !walk_t_outside by exact E. rewrite (clears_agree st rest pp M N (H _)), (H q). reflexivity.
Qed.
Lemma set_t_meq p M N : meq M N -> meq (set_t p M) (set_t p N).
Proof. intros H. unfold set_t. destruct (fst p) as [|st rest]; [exact H|]. apply walk_t_meq. exact H. Qed.
Lemma apply_t_meq : forall ps M N, meq M N -> meq (apply_t ps M) (apply_t ps N).
Proof. induction ps as [|p ps IH]; intros M N H; [exact H|]. rewrite !apply_t_cons. apply IH, set_t_meq, H. Qed.

(* two field paths walk the same steps as long as they walk the same field numbers (always so for
   paths resolved in one schema whose messages have unique field numbers: field_path_coherent) *)
Fixpoint coherent (a b : list step) : Prop :=
  match a, b with
  | sa :: ra, sb :: rb => step_num sa = step_num sb -> sa = sb /\ coherent ra rb
  | _, _ => True
  end.

Lemma coherent_sym : forall a b, coherent a b -> coherent b a.
Proof.
  induction a as [|sa ra IH]; intros b H; destruct b as [|sb rb]; cbn [coherent] in *; auto.
  intros E. destruct (H (eq_sym E)) as [-> Hr]. split; [reflexivity|apply IH; exact Hr].
Qed.
Lemma coherent_refl : forall a, coherent a a.
Proof. induction a as [|sa ra IH]; cbn [coherent]; auto. Qed.

Definition indep (a b : list step) : Prop :=
  untouched a (steps_path b) = true /\ untouched b (steps_path a) = true /\ coherent a b.
Lemma indep_sym a b : indep a b -> indep b a.
Proof. intros [H1 [H2 H3]]. split; [exact H2|split; [exact H1|apply coherent_sym; exact H3]]. Qed.

Lemma mutable_after_walk st st2 rest2 pp v M :
  mutable_msg st pp (walk_t (st2 :: rest2) (pp ++ [step_num st]) v (mutable_msg st pp M)) =
  walk_t (st2 :: rest2) (pp ++ [step_num st]) v (mutable_msg st pp M).
Proof.
  unfold mutable_msg at 1. rewrite walk_t_frame by (apply is_prefix_longer || apply in_sibs_longer).
  rewrite lookup_mutable_self. reflexivity.
Qed.

Lemma walk_t_other_field st rest pp v M n r :
  (step_num st =? n) = false -> existsb (N.eqb n) (sibs (fst st) (snd st)) = false ->
  lookup ((pp ++ [n]) ++ r) (walk_t (st :: rest) pp v M) = lookup ((pp ++ [n]) ++ r) M.
Proof.
  intros E S. rewrite app_cons_assoc.
  apply walk_t_frame; [rewrite is_prefix_snoc; exact E|rewrite in_sibs_snoc; exact S].
Qed.

Lemma clears_other_field stA rA st rest pp v M :
  (step_num st =? step_num stA) = false -> existsb (N.eqb (step_num stA)) (sibs (fst st) (snd st)) = false ->
  clears stA rA pp (walk_t (st :: rest) pp v M) = clears stA rA pp M.
Proof.
  intros E S. apply clears_agree. rewrite <- (app_nil_r (pp ++ [step_num stA])). apply walk_t_other_field; assumption.
Qed.

(* under the field of A an iteration for another field B, not a sibling, changes nothing, and A sees only what is there *)
Lemma walk_commute_under stA rA stB rB pp vA vB M r :
  (step_num stB =? step_num stA) = false -> existsb (N.eqb (step_num stA)) (sibs (fst stB) (snd stB)) = false ->
  lookup ((pp ++ [step_num stA]) ++ r) (walk_t (stA :: rA) pp vA (walk_t (stB :: rB) pp vB M)) =
  lookup ((pp ++ [step_num stA]) ++ r) (walk_t (stB :: rB) pp vB (walk_t (stA :: rA) pp vA M)).
Proof.
  intros E S. rewrite (walk_t_other_field stB) by assumption.
  apply walk_t_local. intros x. apply walk_t_other_field; assumption.
Qed.

Lemma walk_commute : forall A B pp vA vB M,
  untouched A (steps_path B) = true -> untouched B (steps_path A) = true -> coherent A B ->
  meq (walk_t A pp vA (walk_t B pp vB M)) (walk_t B pp vB (walk_t A pp vA M)).
Proof.
  induction A as [|stA rA IH]; intros B pp vA vB M UA UB C; [apply meq_refl|].
  destruct B as [|stB rB]; [apply meq_refl|].
  cbn [steps_path map untouched] in UA, UB.
  destruct (step_num stB =? step_num stA) eqn:E.
  - (* a common first step: Mutable finds the message the other iteration left, and does nothing *)
    apply N.eqb_eq in E. rewrite E, N.eqb_refl in UB. cbn [coherent] in C.
    destruct (C (eq_sym E)) as [Est Cr]. subst stB. clear C E.
    destruct rA as [|a2 rA2]; [discriminate|]. destruct rB as [|b2 rB2]; [discriminate|].
    rewrite !(walk_t_cons stA (a2 :: rA2)), !(walk_t_cons stA (b2 :: rB2)) by discriminate.
    rewrite !mutable_after_walk. apply IH; assumption.
  - (* different first steps: each iteration works under its own field, and outside both only
       clears siblings, which the other one does not recreate *)
    rewrite N.eqb_sym, E in UB. apply negb_true_iff in UA. apply negb_true_iff in UB.
    assert (E' : (step_num stA =? step_num stB) = false) by (rewrite N.eqb_sym; exact E).
    intros q.
    destruct (is_prefix (pp ++ [step_num stA]) q) eqn:PA.
    { apply is_prefix_spec in PA. destruct PA as [r ->]. apply walk_commute_under; assumption. }
    destruct (is_prefix (pp ++ [step_num stB]) q) eqn:PB.
    { apply is_prefix_spec in PB. destruct PB as [r ->]. symmetry. apply walk_commute_under; assumption. }
    rewrite !walk_t_outside, !clears_other_field by assumption.
    destruct (clears stA rA pp M && in_sibs stA pp q); destruct (clears stB rB pp M && in_sibs stB pp q); reflexivity.
Qed.

Lemma set_t_commute a b M : indep (fst a) (fst b) -> meq (set_t a (set_t b M)) (set_t b (set_t a M)).
Proof. intros [U1 [U2 C]]. apply walk_commute; assumption. Qed.

Lemma apply_t_move : forall pre x R M,
  (forall p, In p pre -> indep (fst x) (fst p)) ->
  meq (apply_t (x :: pre ++ R) M) (apply_t (pre ++ x :: R) M).
Proof.
  induction pre as [|a pre IH]; intros x R M I; [apply meq_refl|].
  cbn [app]. rewrite (apply_t_cons a (pre ++ x :: R)).
  eapply meq_trans; [|apply IH; intros p Hp; apply I; right; exact Hp].
  rewrite !apply_t_cons. apply apply_t_meq, set_t_commute, indep_sym, I. left. reflexivity.
Qed.

(* A parameter with the number of the client-side leaf (query key, path variable) it comes from.
   url.Values keeps, per key, the values in order of appearance; between keys nothing is kept. *)
Notation tparam := (nat * param)%type (only parsing).
Definition has_tag (k : nat) (x : tparam) : bool := Nat.eqb (fst x) k.
(* the occurrences of key k, in order *)
Definition occ (k : nat) (l : list tparam) : list tparam := filter (has_tag k) l.
(* l2 is l1 with the keys interleaved in another way: every key keeps its occurrences, in order *)
Definition same_per_key (l1 l2 : list tparam) : Prop := forall k, occ k l1 = occ k l2.

Lemma same_per_key_refl l : same_per_key l l.
Proof. intros k. reflexivity. Qed.
Lemma same_per_key_sym l1 l2 : same_per_key l1 l2 -> same_per_key l2 l1.
Proof. intros H k. symmetry. apply H. Qed.
Lemma same_per_key_trans l1 l2 l3 : same_per_key l1 l2 -> same_per_key l2 l3 -> same_per_key l1 l3.
Proof. intros H1 H2 k. rewrite H1. apply H2. Qed.

Lemma occ_app k l1 l2 : occ k (l1 ++ l2) = occ k l1 ++ occ k l2.
Proof. apply filter_app. Qed.
Lemma occ_cons_self x l : occ (fst x) (x :: l) = x :: occ (fst x) l.
Proof. unfold occ, has_tag. cbn [filter]. rewrite Nat.eqb_refl. reflexivity. Qed.
Lemma In_occ p l : In p l -> In p (occ (fst p) l).
Proof. intros H. apply filter_In. split; [exact H|apply Nat.eqb_refl]. Qed.

Lemma filter_head_split {A} (f : A -> bool) : forall l x r, filter f l = x :: r ->
  exists pre post, l = pre ++ x :: post /\ filter f pre = [].
Proof.
  induction l as [|a l IH]; intros x r H; [discriminate|].
  cbn [filter] in H. destruct (f a) eqn:Fa.
  - inversion H; subst. exists [], l. split; reflexivity.
  - destruct (IH x r H) as [pre [post [-> Hp]]]. exists (a :: pre), post.
    split; [reflexivity|]. cbn [filter]. rewrite Fa. exact Hp.
Qed.

Lemma same_per_key_nil l : same_per_key [] l -> l = [].
Proof.
  intros H. destruct l as [|x l]; [reflexivity|]. specialize (H (fst x)). rewrite occ_cons_self in H. discriminate.
Qed.

Lemma same_per_key_In l1 l2 p : same_per_key l1 l2 -> In p l2 -> In p l1.
Proof. intros H Hp. apply In_occ in Hp. rewrite <- H in Hp. apply filter_In in Hp. apply Hp. Qed.

Lemma same_per_key_cons x l1 l2 : same_per_key (x :: l1) l2 ->
  exists pre post, l2 = pre ++ x :: post /\ (forall a, In a pre -> fst a <> fst x) /\ same_per_key l1 (pre ++ post).
Proof.
  intros S. pose proof (S (fst x)) as Sk. rewrite occ_cons_self in Sk. symmetry in Sk.
  destruct (filter_head_split _ _ _ _ Sk) as [pre [post [-> Hpre]]]. clear Sk.
  exists pre, post. split; [reflexivity|]. split.
  - intros a Ha E. apply In_occ in Ha. rewrite E in Ha. unfold occ in Ha. rewrite Hpre in Ha. exact Ha.
  - intros k. specialize (S k). unfold occ in *. rewrite filter_app in *. cbn [filter] in S.
    destruct (has_tag k x) eqn:Ek; [|exact S].
    apply Nat.eqb_eq in Ek. subst k. rewrite Hpre in *. injection S as S. exact S.
Qed.

Theorem apply_same_per_key : forall l1 l2,
  (forall a b, In a l1 -> In b l1 -> fst a <> fst b -> indep (fst (snd a)) (fst (snd b))) ->
  same_per_key l1 l2 ->
  forall M, meq (apply_t (map snd l1) M) (apply_t (map snd l2) M).
Proof.
  induction l1 as [|x l1 IH]; intros l2 I S M.
  - rewrite (same_per_key_nil l2 S). apply meq_refl.
  - (* apply the rest in the order of l2 without x, then move x over what precedes it in l2 *)
    destruct (same_per_key_cons x l1 l2 S) as [pre [post [-> [Hpre S']]]].
    cbn [map]. rewrite apply_t_cons.
    eapply meq_trans.
    + apply (IH (pre ++ post)); [|exact S']. intros a b Ha Hb. apply I; right; assumption.
    + rewrite !map_app. cbn [map]. rewrite <- apply_t_cons.
      apply apply_t_move. intros p Hp. apply in_map_iff in Hp. destruct Hp as [a [<- Ha]].
      apply I; [left; reflexivity|right; apply (same_per_key_In _ _ a S'), in_or_app; left; exact Ha|].
      intros E. exact (Hpre a Ha (eq_sym E)).
Qed.

Definition others (i : nat) (l : list tparam) : list tparam := filter (fun x => negb (has_tag i x)) l.

Lemma occ_filter_tag (h : nat -> bool) k (l : list tparam) :
  occ k (filter (fun x => h (fst x)) l) = if h k then occ k l else [].
Proof.
  unfold occ, has_tag. induction l as [|x l IH]; cbn [filter]; [destruct (h k); reflexivity|].
  destruct (Nat.eqb (fst x) k) eqn:E.
  - apply Nat.eqb_eq in E. rewrite E. destruct (h k); cbn [filter]; rewrite ?E, ?Nat.eqb_refl, IH; reflexivity.
  - destruct (h (fst x)); cbn [filter]; rewrite ?E; exact IH.
Qed.
Lemma occ_occ i k l : occ k (occ i l) = if Nat.eqb k i then occ k l else [].
Proof. exact (occ_filter_tag (fun t => Nat.eqb t i) k l). Qed.
Lemma occ_others i k l : occ k (others i l) = if Nat.eqb k i then [] else occ k l.
Proof.
  etransitivity; [exact (occ_filter_tag (fun t => negb (Nat.eqb t i)) k l)|]. destruct (Nat.eqb k i); reflexivity.
Qed.

Lemma key_to_end i l : same_per_key l (others i l ++ occ i l).
Proof. intros k. rewrite occ_app, occ_others, occ_occ. destruct (Nat.eqb k i); [reflexivity|symmetry; apply app_nil_r]. Qed.
Lemma key_to_front i l : same_per_key l (occ i l ++ others i l).
Proof. intros k. rewrite occ_app, occ_others, occ_occ. destruct (Nat.eqb k i); [symmetry; apply app_nil_r|reflexivity]. Qed.

(* a client-side leaf: its field path and the values sent for it, in order.  A singular leaf has
   one value (if it has more, the last one wins: params_rebuild_rep); a repeated leaf has all its items. *)
Definition leafg := (list step * list pval)%type.
Definition expand (g : leafg) : list param := map (fun v => (fst g, v)) (snd g).
Definition leaf_at (gs : list leafg) (k : nat) : list param :=
  match nth_error gs k with Some g => expand g | None => [] end.

(* the list l handed to params.set is admissible for the leaves gs: its elements can be labelled
   with leaf numbers so that the occurrences of label k are, in order, the values of leaf k *)
Definition admissible (gs : list leafg) (l : list param) : Prop :=
  exists tl : list tparam, map snd tl = l /\ forall k, occ k tl = map (pair k) (leaf_at gs k).

(* one admissible list: leaf after leaf (what parse_query produces for one iteration order) *)
Definition tag_l (lg : list (nat * leafg)) : list tparam :=
  concat (map (fun kg => map (pair (fst kg)) (expand (snd kg))) lg).
Definition tagged (gs : list leafg) : list tparam := tag_l (combine (seq 0 (length gs)) gs).

Lemma tag_l_cons x lg : tag_l (x :: lg) = map (pair (fst x)) (expand (snd x)) ++ tag_l lg.
Proof. reflexivity. Qed.

Lemma filter_tag_map k n (X : list param) :
  filter (has_tag k) (map (pair n) X) = if Nat.eqb n k then map (pair n) X else [].
Proof.
  induction X as [|x X IH]; cbn [map filter]; [destruct (Nat.eqb n k); reflexivity|].
  unfold has_tag at 1. cbn [fst]. rewrite IH. destruct (Nat.eqb n k); reflexivity.
Qed.

Lemma occ_tag_seq : forall gs n k,
  occ k (tag_l (combine (seq n (length gs)) gs)) = if Nat.ltb k n then [] else map (pair k) (leaf_at gs (k - n)).
Proof.
  induction gs as [|g r IH]; intros n k.
  - unfold leaf_at. cbn [length seq combine tag_l map concat occ filter]. destruct (k - n)%nat; destruct (Nat.ltb k n); reflexivity.
  - cbn [length seq combine]. rewrite tag_l_cons, occ_app, (IH (S n) k). unfold occ at 1. rewrite filter_tag_map. cbn [fst snd].
    destruct (Nat.eqb_spec n k) as [<-|E].
    + rewrite Nat.ltb_irrefl, Nat.sub_diag. replace (Nat.ltb n (S n)) with true by lia. apply app_nil_r.
    + cbn [app]. destruct (Nat.ltb_spec k n); [replace (Nat.ltb k (S n)) with true by lia; reflexivity|].
      replace (Nat.ltb k (S n)) with false by lia. replace (k - n)%nat with (S (k - S n)) by lia. reflexivity.
Qed.

Lemma occ_tagged gs k : occ k (tagged gs) = map (pair k) (leaf_at gs k).
Proof. unfold tagged. rewrite occ_tag_seq. cbn. rewrite Nat.sub_0_r. reflexivity. Qed.

Lemma map_snd_tag_l : forall lg, map snd (tag_l lg) = concat (map expand (map snd lg)).
Proof.
  induction lg as [|x lg IH]; [reflexivity|]. rewrite tag_l_cons, map_app, IH, map_map. cbn [snd map concat].
  rewrite map_id. reflexivity.
Qed.
Lemma combine_seq_snd {A} : forall (gs : list A) n, map snd (combine (seq n (length gs)) gs) = gs.
Proof. induction gs as [|g gs IH]; intros n; [reflexivity|]. cbn. rewrite IH. reflexivity. Qed.
Lemma combine_seq_fst {A} : forall (gs : list A) n, map fst (combine (seq n (length gs)) gs) = seq n (length gs).
Proof. induction gs as [|g gs IH]; intros n; [reflexivity|]. cbn. rewrite IH. reflexivity. Qed.

Lemma admissible_same gs l : admissible gs l <-> exists tl, map snd tl = l /\ same_per_key (tagged gs) tl.
Proof.
  split; intros [tl [E H]]; exists tl; (split; [exact E|]); intros k.
  - rewrite occ_tagged, H. reflexivity.
  - rewrite <- H. apply occ_tagged.
Qed.

Lemma admissible_concat gs : admissible gs (concat (map expand gs)).
Proof.
  exists (tagged gs). split; [|apply occ_tagged]. unfold tagged. rewrite map_snd_tag_l, combine_seq_snd. reflexivity.
Qed.

Lemma tag_l_perm : forall lg lg', Permutation lg lg' -> NoDup (map fst lg) -> same_per_key (tag_l lg) (tag_l lg').
Proof.
  intros lg lg' P. induction P as [|x l l' P IH|x y l|l l' l'' P1 IH1 P2 IH2]; intros ND k.
  - reflexivity.
  - rewrite !tag_l_cons. unfold occ. rewrite !filter_app. f_equal. apply IH. cbn [map] in ND. inversion ND; assumption.
  - rewrite !tag_l_cons. unfold occ. rewrite !filter_app, !filter_tag_map.
    cbn [map] in ND. inversion ND as [|? ? Nx _]; subst.
    destruct (Nat.eqb (fst y) k) eqn:Ey; destruct (Nat.eqb (fst x) k) eqn:Ex; cbn [app]; try reflexivity.
    exfalso. apply Nx. left. apply Nat.eqb_eq in Ey. apply Nat.eqb_eq in Ex. congruence.
  - eapply same_per_key_trans; [apply IH1; exact ND|apply IH2].
    exact (Permutation_NoDup (Permutation_map fst P1) ND).
Qed.

(* the iteration order of url.Values: leaf after leaf, with the leaves taken in any order, is admissible *)
Lemma admissible_perm gs gs' : Permutation gs gs' -> admissible gs (concat (map expand gs')).
Proof.
  intros P. set (lg := combine (seq 0 (length gs)) gs).
  assert (P' : Permutation gs' (map snd lg)) by (unfold lg; rewrite combine_seq_snd; apply Permutation_sym; exact P).
  destruct (Permutation_map_inv snd _ P') as [l3 [E3 P3]].
  apply admissible_same. exists (tag_l l3). split.
  - rewrite map_snd_tag_l, <- E3. reflexivity.
  - apply tag_l_perm; [exact P3|]. unfold lg. rewrite combine_seq_fst. apply seq_NoDup.
Qed.

Lemma In_expand g p : In p (expand g) -> fst p = fst g /\ In (snd p) (snd g).
Proof. unfold expand. intros H. apply in_map_iff in H. destruct H as [v [<- Hv]]. split; [reflexivity|exact Hv]. Qed.

Lemma apply_expand_last fds vs d N : vs <> [] ->
  apply_t (expand (fds, vs)) N = walk_t fds [] (last vs d) (apply_t (expand (fds, removelast vs)) N).
Proof.
  intros Hv. rewrite (app_removelast_last d Hv) at 1. unfold expand. cbn [fst snd].
  rewrite map_app, apply_t_app. reflexivity.
Qed.

Definition list_at (p : path) (M : msg) : list item :=
  match lookup p M with Some (EList l) => l | _ => [] end.

Lemma walk_t_append fds pp v M : fds <> [] -> f_card (snd (last_step fds)) = Repeated ->
  lookup (pp ++ steps_path fds) (walk_t fds pp v M) =
    Some (EList (list_at (pp ++ steps_path fds) M ++ [item_of v])) /\
  forall a r, lookup (pp ++ steps_path fds ++ a :: r) (walk_t fds pp v M) = lookup (pp ++ steps_path fds ++ a :: r) M.
Proof.
  intros Hne C. destruct (exists_last Hne) as [A [st ->]]. unfold last_step in C. rewrite last_last in C.
  rewrite walk_t_app by discriminate. cbn [walk_t]. rewrite C, steps_path_snoc. unfold list_at. split.
  - rewrite <- (lookup_mutables_below A pp M (step_num st) []), app_assoc, lookup_append_field, path_eqb_refl.
    reflexivity.
  - intros a r. rewrite !app_assoc, lookup_append_field, path_eqb_longer, app_cons_assoc, <- app_assoc.
    apply lookup_mutables_below.
Qed.

Lemma walk_t_clears_last fds pp v M s rel : fds <> [] -> singular_last fds ->
  In s (sibs (fst (last_step fds)) (snd (last_step fds))) ->
  lookup (pp ++ removelast (steps_path fds) ++ s :: rel) (walk_t fds pp v M) = None.
Proof.
  intros Hne S Hs. destruct (exists_last Hne) as [A [st ->]]. unfold singular_last, last_step in *.
  rewrite last_last in *. rewrite walk_t_app by discriminate. cbn [walk_t].
  rewrite S, steps_path_snoc, removelast_last, app_assoc.
  rewrite lookup_set_field_outside by (rewrite is_prefix_snoc; exact (sib_not_self _ _ _ Hs)).
  rewrite in_sibs_snoc, (proj2 (existsb_eqb_In s _) Hs). reflexivity.
Qed.

(* Mutable on a step of the way clears the other members of its oneof, unless the member was set
   already (then a well-formed message has nothing under the other members) *)
Lemma walk_t_clears_mid A1 st A2 pp v M s rel : A2 <> [] ->
  In s (sibs (fst st) (snd st)) ->
  (lookup (pp ++ steps_path A1 ++ [step_num st]) M = Some EPresent -> lookup (pp ++ steps_path A1 ++ s :: rel) M = None) ->
  lookup (pp ++ steps_path A1 ++ s :: rel) (walk_t (A1 ++ st :: A2) pp v M) = None.
Proof.
  intros HA2 Hs HM. rewrite walk_t_app, app_assoc by discriminate.
  rewrite walk_t_outside by (rewrite is_prefix_snoc; exact (sib_not_self _ _ _ Hs)).
  rewrite in_sibs_snoc, (proj2 (existsb_eqb_In s _) Hs), andb_true_r.
  destruct A2; [contradiction|]. cbn [clears]. unfold fresh.
  rewrite <- !app_assoc, !lookup_mutables_below.
  destruct (lookup (pp ++ steps_path A1 ++ [step_num st]) M) as [[| |]|]; auto.
Qed.

Lemma group_repeated fds : fds <> [] -> f_card (snd (last_step fds)) = Repeated ->
  forall vs N,
  list_at (steps_path fds) (apply_t (expand (fds, vs)) N) = list_at (steps_path fds) N ++ map item_of vs /\
  (vs <> [] -> lookup (steps_path fds) (apply_t (expand (fds, vs)) N) =
               Some (EList (list_at (steps_path fds) N ++ map item_of vs))) /\
  (forall a r, lookup (steps_path fds ++ a :: r) (apply_t (expand (fds, vs)) N) = lookup (steps_path fds ++ a :: r) N).
Proof.
  intros W C vs N. induction vs as [|v vs IH] using rev_ind.
  - cbn. rewrite app_nil_r. repeat split; congruence.
  - destruct IH as [I1 [_ I3]].
    destruct (walk_t_append fds [] v (apply_t (expand (fds, vs)) N) W C) as [A1 A2]. cbn [app] in A1, A2.
    unfold expand in *. cbn [fst snd] in *. rewrite !map_app, apply_t_app, app_assoc, <- I1.
    cbn [map apply_t fold_left]. unfold set_t. cbn [fst snd].
    split; [unfold list_at at 1; rewrite A1; reflexivity|]. split; [intros _; exact A1|].
    intros a r. rewrite A2. apply I3.
Qed.

Definition diverge (p q : path) : Prop := is_prefix p q = false /\ is_prefix q p = false.

Lemma walk_t_keeps_none : forall fds pp v M q,
  diverge q (steps_path fds) -> lookup (pp ++ q) M = None -> lookup (pp ++ q) (walk_t fds pp v M) = None.
Proof.
  induction fds as [|st rest IH]; intros pp v M q [D1 D2] L; [exact L|].
  destruct q as [|m q']; [discriminate|]. cbn [steps_path map is_prefix] in D1, D2.
  destruct (m =? step_num st) eqn:E.
  - apply N.eqb_eq in E. subst m. rewrite N.eqb_refl in D2. cbn [andb] in D1, D2.
    destruct rest as [|st2 rest2]; [cbn in D2; discriminate|].
    rewrite walk_t_cons, <- app_cons_assoc by discriminate. apply IH; [split; assumption|].
    destruct q' as [|x y]; [discriminate|]. rewrite lookup_mutable_below, app_cons_assoc. exact L.
  - rewrite walk_t_outside by (rewrite is_prefix_snoc, N.eqb_sym; exact E).
    rewrite L. destruct (clears st rest pp M && in_sibs st pp (pp ++ m :: q')); reflexivity.
Qed.

Lemma apply_t_keeps_none : forall ps M q,
  (forall p, In p ps -> diverge q (steps_path (fst p))) -> lookup q M = None -> lookup q (apply_t ps M) = None.
Proof.
  induction ps as [|p ps IH]; intros M q H L; [exact L|].
  rewrite apply_t_cons. apply IH; [intros x Hx; apply H; now right|].
  exact (walk_t_keeps_none (fst p) [] (snd p) M q (H p (or_introl eq_refl)) L).
Qed.

Lemma diverge_head m n p q : (m =? n) = false -> diverge (m :: p) (n :: q).
Proof. intros E. split; cbn [is_prefix]; [|rewrite N.eqb_sym]; rewrite E; reflexivity. Qed.
Lemma diverge_cons n p q : diverge p q -> diverge (n :: p) (n :: q).
Proof. intros [D1 D2]. split; cbn [is_prefix]; rewrite N.eqb_refl; assumption. Qed.

Lemma sib_diverges : forall A1 st A2 B s rel,
  untouched (A1 ++ st :: A2) (steps_path B) = true ->
  In s (sibs (fst st) (snd st)) ->
  diverge (steps_path A1 ++ s :: rel) (steps_path B).
Proof.
  induction A1 as [|a A1 IH]; intros st A2 B s rel U Hs.
  - cbn [app steps_path map] in *. destruct B as [|stB B']; [discriminate|]. cbn [steps_path map untouched] in U |- *.
    destruct (step_num stB =? step_num st) eqn:E.
    + apply N.eqb_eq in E. rewrite E. apply diverge_head. rewrite N.eqb_sym. exact (sib_not_self _ _ _ Hs).
    + apply diverge_head. apply negb_true_iff in U. apply not_true_is_false. intros E2. apply N.eqb_eq in E2. subst s.
      apply existsb_eqb_In in Hs. congruence.
  - change ((a :: A1) ++ st :: A2) with (a :: (A1 ++ st :: A2)) in U.
    destruct B as [|stB B']; [discriminate|]. cbn [steps_path map untouched app] in U |- *.
    destruct (step_num stB =? step_num a) eqn:E.
    + apply N.eqb_eq in E. rewrite E. apply diverge_cons.
      destruct (A1 ++ st :: A2) eqn:EA; [discriminate|]. rewrite <- EA in U. exact (IH st A2 B' s rel U Hs).
    + apply diverge_head. rewrite N.eqb_sym. exact E.
Qed.

Lemma untouched_self_sib : forall A1 st A2 s rel, In s (sibs (fst st) (snd st)) ->
  diverge (steps_path A1 ++ s :: rel) (steps_path (A1 ++ st :: A2)).
Proof.
  induction A1 as [|a A1 IH]; intros st A2 s rel Hs; cbn [app steps_path map].
  - apply diverge_head. rewrite N.eqb_sym. exact (sib_not_self _ _ _ Hs).
  - apply diverge_cons. apply IH. exact Hs.
Qed.

(* "the message is rebuilt": what M' is, given the leaves gs and the message M0 the parameters were
   applied to (the body part) *)
Definition rebuilt (gs : list leafg) (M0 M' : msg) : Prop :=
  (* a singular leaf: exactly the image of its value (of the last one, if the key came several times) *)
  (forall i fds vs d rel, nth_error gs i = Some (fds, vs) -> singular_last fds -> vs <> [] ->
     lookup (steps_path fds ++ rel) M' = lookup rel (field_image (snd (last_step fds)) (last vs d))) /\
  (* a repeated leaf: its values, in order, after the items M0 had there; nothing changes under it *)
  (forall i fds vs, nth_error gs i = Some (fds, vs) -> f_card (snd (last_step fds)) = Repeated ->
     list_at (steps_path fds) M' = list_at (steps_path fds) M0 ++ map item_of vs /\
     (vs <> [] -> lookup (steps_path fds) M' = Some (EList (list_at (steps_path fds) M0 ++ map item_of vs))) /\
     (forall a r, lookup (steps_path fds ++ a :: r) M' = lookup (steps_path fds ++ a :: r) M0)) /\
  (* every parent message of a leaf is present *)
  (forall i fds vs p r, nth_error gs i = Some (fds, vs) -> vs <> [] -> steps_path fds = p ++ r -> p <> [] -> r <> [] ->
     lookup p M' = Some EPresent) /\
  (* what no leaf touches is as in M0 *)
  (forall q, (forall g, In g gs -> untouched (fst g) q = true) -> lookup q M' = lookup q M0) /\
  (* no entry under the other members of the oneof of a singular leaf *)
  (forall i fds vs s rel, nth_error gs i = Some (fds, vs) -> singular_last fds -> vs <> [] ->
     In s (sibs (fst (last_step fds)) (snd (last_step fds))) ->
     lookup (removelast (steps_path fds) ++ s :: rel) M' = None) /\
  (* no entry under the other members of the oneof of a message on the way to a leaf, unless M0
     had that message set and entries under the other members as well *)
  (forall i A1 st A2 vs s rel, nth_error gs i = Some (A1 ++ st :: A2, vs) -> vs <> [] -> A2 <> [] ->
     In s (sibs (fst st) (snd st)) ->
     (lookup (steps_path A1 ++ [step_num st]) M0 = Some EPresent -> lookup (steps_path A1 ++ s :: rel) M0 = None) ->
     lookup (steps_path A1 ++ s :: rel) M' = None).

(* the hypotheses on the leaves: each walkable; different leaves do not touch each other (as in
   C03_roundtrip; a repeated leaf is treated like a singular one: its path is not at, under or above
   another leaf's path nor under a oneof sibling of one of its steps, and conversely) and resolve
   common field numbers to common fields *)
Definition leaves_ok (gs : list leafg) : Prop :=
  (forall g, In g gs -> walkable (fst g) = true) /\
  (forall i j gi gj, i <> j -> nth_error gs i = Some gi -> nth_error gs j = Some gj ->
     untouched (fst gj) (steps_path (fst gi)) = true /\ coherent (fst gi) (fst gj)).

Section RebuildRep.
Variable gs : list leafg.
Hypothesis ok : leaves_ok gs.

Lemma tagged_fst a : In a (tagged gs) -> exists g, nth_error gs (fst a) = Some g /\ fst (snd a) = fst g.
Proof.
  intros H. apply In_occ in H. rewrite occ_tagged in H. unfold leaf_at in H.
  destruct (nth_error gs (fst a)) as [g|]; [|destruct H].
  exists g. split; [reflexivity|]. apply in_map_iff in H. destruct H as [p [<- Hp]]. apply In_expand, Hp.
Qed.
Lemma tagged_indep a b : In a (tagged gs) -> In b (tagged gs) -> fst a <> fst b -> indep (fst (snd a)) (fst (snd b)).
Proof.
  intros Ha Hb Hab. destruct (tagged_fst a Ha) as [ga [Hna ->]]. destruct (tagged_fst b Hb) as [gb [Hnb ->]].
  destruct (proj2 ok _ _ ga gb Hab Hna Hnb) as [U1 C]. destruct (proj2 ok _ _ gb ga (not_eq_sym Hab) Hnb Hna) as [U2 _].
  split; [exact U2|split; [exact U1|exact C]].
Qed.

Lemma canonical_meq l M : admissible gs l -> meq (apply_t (map snd (tagged gs)) M) (apply_t l M).
Proof.
  intros H. apply admissible_same in H. destruct H as [tl [<- S]].
  apply apply_same_per_key; [exact tagged_indep|exact S].
Qed.

Theorem order_free_t l1 l2 M : admissible gs l1 -> admissible gs l2 -> meq (apply_t l1 M) (apply_t l2 M).
Proof.
  intros H1 H2. eapply meq_trans; [apply meq_sym; apply canonical_meq; exact H1|apply canonical_meq; exact H2].
Qed.

Lemma order_split l A B M : admissible gs l -> same_per_key (tagged gs) (A ++ B) ->
  meq (apply_t l M) (apply_t (map snd B) (apply_t (map snd A) M)).
Proof.
  intros H S. rewrite <- apply_t_app, <- map_app. apply order_free_t; [exact H|].
  apply admissible_same. exists (A ++ B). split; [reflexivity|exact S].
Qed.

Lemma admissible_from l : admissible gs l -> forall p, In p l -> exists g, In g gs /\ fst p = fst g.
Proof.
  intros H p Hp. apply admissible_same in H. destruct H as [tl [<- S]].
  apply in_map_iff in Hp. destruct Hp as [a [<- Ha]].
  destruct (tagged_fst a (same_per_key_In _ _ a S Ha)) as [g [Hn E]]. exists g. split; [eapply nth_error_In; exact Hn|exact E].
Qed.
Lemma admissible_ok l M0 : admissible gs l -> params_set l M0 = Ok (apply_t l M0).
Proof.
  intros H. apply params_set_t. intros p Hp. destruct (admissible_from l H p Hp) as [g [Hg ->]]. exact (proj1 ok g Hg).
Qed.

Definition rest_of (i : nat) : list param := map snd (others i (tagged gs)).

Lemma occ_tagged_snd i gi : nth_error gs i = Some gi -> map snd (occ i (tagged gs)) = expand gi.
Proof. intros Hi. rewrite occ_tagged, map_map. unfold leaf_at. rewrite Hi. apply map_id. Qed.

Lemma to_end l i gi M : admissible gs l -> nth_error gs i = Some gi ->
  meq (apply_t l M) (apply_t (expand gi) (apply_t (rest_of i) M)).
Proof. intros H Hi. rewrite <- (occ_tagged_snd i gi Hi). exact (order_split l _ _ M H (key_to_end i _)). Qed.
Lemma to_front l i gi M : admissible gs l -> nth_error gs i = Some gi ->
  meq (apply_t l M) (apply_t (rest_of i) (apply_t (expand gi) M)).
Proof. intros H Hi. rewrite <- (occ_tagged_snd i gi Hi). exact (order_split l _ _ M H (key_to_front i _)). Qed.

Lemma rest_of_spec i p : In p (rest_of i) ->
  exists j gj, j <> i /\ nth_error gs j = Some gj /\ fst p = fst gj.
Proof.
  intros Hp. unfold rest_of, others in Hp. apply in_map_iff in Hp. destruct Hp as [a [<- Ha]].
  apply filter_In in Ha. destruct Ha as [Ha Ht]. destruct (tagged_fst a Ha) as [g [Hn E]].
  exists (fst a), g. split; [|split; assumption].
  intros X. unfold has_tag in Ht. rewrite X, Nat.eqb_refl in Ht. discriminate.
Qed.

Lemma rest_of_frame i gi M rel : nth_error gs i = Some gi ->
  lookup (steps_path (fst gi) ++ rel) (apply_t (rest_of i) M) = lookup (steps_path (fst gi) ++ rel) M.
Proof.
  intros Hi. apply apply_t_untouched.
  intros p Hp. apply untouched_app. destruct (rest_of_spec i p Hp) as [j [gj [Hj [Hn ->]]]].
  apply (proj2 ok i j gi gj (not_eq_sym Hj) Hi Hn).
Qed.

Theorem params_rebuild_rep : forall l M0 M', admissible gs l -> params_set l M0 = Ok M' -> rebuilt gs M0 M'.
Proof.
  intros l M0 M' Ha H. apply params_set_apply_t in H. subst M'.
  assert (Hne : forall i fds vs, nth_error gs i = Some (fds, vs) -> fds <> []).
  { intros i fds vs Hi. exact (walkable_ne fds (proj1 ok _ (nth_error_In _ _ Hi))). }
  split; [|split; [|split; [|split; [|split]]]].
  - intros i fds vs d rel Hi S Hv. rewrite (to_end l i _ M0 Ha Hi), (apply_expand_last fds vs d _ Hv).
    exact (walk_t_wins fds [] _ _ rel (Hne i fds vs Hi) S).
  - (* the leaf first: the others leave alone what is at and under its path *)
    intros i fds vs Hi C.
    destruct (group_repeated fds (Hne i fds vs Hi) C vs M0) as [G1 [G2 G3]].
    assert (F : forall rel, lookup (steps_path fds ++ rel) (apply_t l M0) =
                            lookup (steps_path fds ++ rel) (apply_t (expand (fds, vs)) M0)).
    { intros rel. rewrite (to_front l i _ M0 Ha Hi). exact (rest_of_frame i _ _ rel Hi). }
    split; [|split].
    + rewrite <- G1. unfold list_at. rewrite <- (app_nil_r (steps_path fds)), F. reflexivity.
    + intros Hv. rewrite <- (G2 Hv), <- (app_nil_r (steps_path fds)). apply F.
    + intros a r. rewrite F. apply G3.
  - intros i fds vs p r Hi Hv E Hp Hr.
    rewrite (to_end l i _ M0 Ha Hi), (apply_expand_last fds vs (PScalar (SBool false)) _ Hv).
    exact (walk_t_parents fds [] _ _ p r E Hp Hr).
  - intros q U. apply apply_t_untouched.
    intros p Hp. destruct (admissible_from l Ha p Hp) as [g [Hg ->]]. apply U. exact Hg.
  - intros i fds vs s rel Hi S Hv Hs.
    rewrite (to_end l i _ M0 Ha Hi), (apply_expand_last fds vs (PScalar (SBool false)) _ Hv).
    exact (walk_t_clears_last fds [] _ _ s rel (Hne i fds vs Hi) S Hs).
  - intros i A1 st A2 vs s rel Hi Hv HA2 Hs HM.
    rewrite (to_front l i _ M0 Ha Hi). apply apply_t_keeps_none.
    + intros p Hp. destruct (rest_of_spec i p Hp) as [j [gj [Hj [Hn ->]]]].
      destruct (proj2 ok j i gj _ Hj Hn Hi) as [U _]. exact (sib_diverges A1 st A2 (fst gj) s rel U Hs).
    + destruct vs as [|v vs']; [contradiction|].
      change (expand (A1 ++ st :: A2, v :: vs')) with ((A1 ++ st :: A2, v) :: expand (A1 ++ st :: A2, vs')).
      rewrite apply_t_cons. apply apply_t_keeps_none.
      * intros p Hp. apply In_expand in Hp. destruct Hp as [-> _]. apply untouched_self_sib. exact Hs.
      * exact (walk_t_clears_mid A1 st A2 [] v M0 s rel HA2 Hs HM).
Qed.

Theorem repeated_order_free : forall l1 l2 M0, admissible gs l1 -> admissible gs l2 ->
  exists M1 M2, params_set l1 M0 = Ok M1 /\ params_set l2 M0 = Ok M2 /\ meq M1 M2.
Proof.
  intros l1 l2 M0 H1 H2. exists (apply_t l1 M0), (apply_t l2 M0).
  split; [apply admissible_ok; exact H1|]. split; [apply admissible_ok; exact H2|apply order_free_t; assumption].
Qed.
End RebuildRep.

Lemma find_by_In key : forall pf n f, find_by key pf n = Some f -> In f pf.
Proof.
  induction pf as [|g pf IH]; intros n f H; [discriminate|]. cbn [find_by] in H.
  destruct (bytes_eqb (key g) n); [inversion H; left; reflexivity|right; eapply IH; exact H].
Qed.
Lemma find_field_In pf n f : find_field pf n = Some f -> In f pf.
Proof.
  unfold find_field. destruct (find_by f_json pf n) eqn:E.
  - intros H. inversion H; subst. eapply find_by_In. exact E.
  - apply find_by_In.
Qed.

Lemma coherent_nil_r a : coherent a [].
Proof. destruct a; exact I. Qed.

Lemma field_path_coherent : forall sch,
  (forall m, NoDup (map f_num (msg_fields sch m))) ->
  forall na root nb A B, NoDup (map f_num root) ->
  field_path sch root na = Some A -> field_path sch root nb = Some B -> coherent A B.
Proof.
  intros sch U. induction na as [|n rest IH]; intros root nb A B Ur HA HB.
  - cbn in HA. inversion HA; subst. exact I.
  - destruct nb as [|n' rest']; [cbn in HB; inversion HB; subst; apply coherent_nil_r|].
    destruct (field_path_cons _ _ _ _ _ HA) as [fd [A' [Ff [-> HA']]]].
    destruct (field_path_cons _ _ _ _ _ HB) as [fd' [B' [Ff' [-> HB']]]].
    cbn [coherent]. unfold step_num. cbn [snd]. intros En.
    assert (Efd : fd = fd').
    { apply (NoDup_map_inj f_num root); [exact Ur|eapply find_field_In; exact Ff|eapply find_field_In; exact Ff'|exact En]. }
    subst fd'. split; [reflexivity|].
    destruct HA' as [[_ ->]|[m [_ [Hm HA']]]]; [exact I|].
    destruct HB' as [[_ ->]|[m' [_ [Hm' HB']]]]; [apply coherent_nil_r|].
    assert (m' = m) by congruence. subst m'.
    exact (IH (msg_fields sch m) rest' A' B' (U m) HA' HB').
Qed.

Section RoundTripRep.
Variable ofloat : bool -> bytes -> option N.
Variable owkt : wkt -> bool -> bytes -> option subtree.
Variable marshal : nat -> nat -> subtree -> bytes.
Variable unmarshal : nat -> nat -> bytes -> option subtree.
Hypothesis codec_inverse : forall c ty t, unmarshal c ty (marshal c ty t) = Some t.
Variable deflate : bytes -> bytes.
Variable inflate : bytes -> option bytes.
Hypothesis gzip_inverse : forall b, inflate (deflate b) = Some b.

(* one query key as the client wrote it: key, its field path, and for every occurrence of the key,
   in order of appearance, the text and the value it stands for *)
Definition rqleaf := (bytes * list step * list (bytes * pval))%type.
Definition rqleaf_ok (sch : schema) (root : list field) (l : rqleaf) : Prop :=
  match l with (key, fds, tvs) =>
    field_path sch root (split_dots [] key) = Some fds /\
    Forall (fun tv => parse_param ofloat owkt sch fds (fst tv) = Ok (snd tv)) tvs end.
Definition rqleaf_query (l : rqleaf) : bytes * list bytes := match l with (key, _, tvs) => (key, map fst tvs) end.
Definition rqleaf_group (l : rqleaf) : leafg := match l with (_, fds, tvs) => (fds, map snd tvs) end.
Definition pleaf_group (l : pleaf) : leafg := (fst (fst l), [snd l]).

Lemma parse_values_leaves sch fds : forall tvs,
  Forall (fun tv => parse_param ofloat owkt sch fds (fst tv) = Ok (snd tv)) tvs ->
  parse_values ofloat owkt sch fds (map fst tvs) = Ok (expand (fds, map snd tvs)).
Proof.
  induction tvs as [|[t v] tvs IH]; intros H; [reflexivity|].
  inversion H as [|? ? Hp Hr]; subst. cbn [fst snd] in Hp. cbn [map fst snd parse_values]. rewrite Hp. cbn [bind].
  rewrite (IH Hr). reflexivity.
Qed.

Lemma parse_query_rleaves : forall sch root ls, Forall (rqleaf_ok sch root) ls ->
  parse_query ofloat owkt sch root (map rqleaf_query ls) = Ok (concat (map expand (map rqleaf_group ls))).
Proof.
  induction ls as [|[[key fds] tvs] ls IH]; intros H; [reflexivity|].
  inversion H as [|? ? Hok Hr]; subst. cbn in Hok. destruct Hok as [Hf Hp].
  cbn [map rqleaf_query parse_query rqleaf_group concat]. rewrite Hf, (parse_values_leaves sch fds tvs Hp). cbn [bind].
  rewrite (IH Hr). reflexivity.
Qed.

Definition split_request_rep (sch : schema) (r : rule) (pls : list pleaf) (qls : list rqleaf)
           (body : option subtree) (codec : nat) (gz : bool) : request :=
  mkReq (map (fun l => snd (fst l)) pls) (map rqleaf_query qls)
        (option_map (fun t => let b := marshal codec (body_type sch r) t in if gz then deflate b else b) body)
        (Some codec) gz.

(* the leaves of a request: the query keys (in the iteration order of the map), then the path
   variables, innermost first; one value per variable *)
Definition split_groups (pls : list pleaf) (qls : list rqleaf) : list leafg :=
  map rqleaf_group qls ++ rev (map pleaf_group pls).

Lemma concat_pleaf_groups (X : list pleaf) :
  concat (map expand (map pleaf_group X)) = map (fun l => (fst (fst l), snd l)) X.
Proof. induction X as [|x X IH]; [reflexivity|]. cbn [map concat]. rewrite IH. reflexivity. Qed.

Lemma split_groups_concat pls qls :
  concat (map expand (split_groups pls qls)) =
  concat (map expand (map rqleaf_group qls)) ++ rev (map (fun l => (fst (fst l), snd l)) pls).
Proof.
  unfold split_groups. rewrite map_app, concat_app, <- map_rev, concat_pleaf_groups, map_rev. reflexivity.
Qed.

Lemma decode_request_rep : forall sch r pls qls body codec gz M0,
  r_vars r = map (fun l => fst (fst l)) pls ->
  Forall (pleaf_ok ofloat owkt sch) pls ->
  Forall (rqleaf_ok sch (msg_fields sch (r_input r))) qls ->
  (r_body r = BNone -> body = None) ->
  body_image r body = Ok M0 ->
  decode_request ofloat owkt unmarshal inflate sch r (split_request_rep sch r pls qls body codec gz) =
  params_set (concat (map expand (split_groups pls qls))) M0.
Proof.
  intros sch r pls qls body codec gz M0 Hv Hp Hq Hnone Hb. rewrite split_groups_concat.
  exact (decode_request_built ofloat owkt marshal unmarshal codec_inverse deflate inflate gzip_inverse
           sch r pls _ _ body codec gz M0 Hv Hp (parse_query_rleaves sch _ qls Hq) Hnone Hb).
Qed.

Theorem roundtrip_rep : forall sch r pls qls body codec gz M0,
  r_vars r = map (fun l => fst (fst l)) pls ->
  Forall (pleaf_ok ofloat owkt sch) pls ->
  Forall (rqleaf_ok sch (msg_fields sch (r_input r))) qls ->
  leaves_ok (split_groups pls qls) ->
  (r_body r = BNone -> body = None) ->
  body_image r body = Ok M0 ->
  exists M',
    decode_request ofloat owkt unmarshal inflate sch r (split_request_rep sch r pls qls body codec gz) = Ok M' /\
    rebuilt (split_groups pls qls) M0 M' /\
    (* the same message as params.set builds from any admissible list of the parameters *)
    (forall l, admissible (split_groups pls qls) l -> exists M'', params_set l M0 = Ok M'' /\ meq M'' M') /\
    (* and as the request with the keys of the query in any other order *)
    (forall qls', Permutation qls qls' -> exists M'',
       decode_request ofloat owkt unmarshal inflate sch r (split_request_rep sch r pls qls' body codec gz) = Ok M'' /\
       meq M'' M').
Proof.
  intros sch r pls qls body codec gz M0 Hv Hp Hq Hok Hnone Hb.
  set (gs := split_groups pls qls) in *.
  pose proof (admissible_concat gs) as A0. pose proof (admissible_ok gs Hok _ M0 A0) as HM'.
  exists (apply_t (concat (map expand gs)) M0). split; [|split; [|split]].
  - rewrite (decode_request_rep sch r pls qls body codec gz M0 Hv Hp Hq Hnone Hb). exact HM'.
  - exact (params_rebuild_rep gs Hok _ M0 _ A0 HM').
  - intros l Hl. exists (apply_t l M0). split; [exact (admissible_ok gs Hok l M0 Hl)|].
    exact (order_free_t gs Hok l _ M0 Hl A0).
  - intros qls' P.
    assert (Hq' : Forall (rqleaf_ok sch (msg_fields sch (r_input r))) qls').
    { apply Forall_forall. intros x Hx. rewrite Forall_forall in Hq. apply Hq.
      exact (Permutation_in x (Permutation_sym P) Hx). }
    assert (A' : admissible gs (concat (map expand (split_groups pls qls')))).
    { apply admissible_perm. unfold gs, split_groups. apply Permutation_app_tail. apply Permutation_map. exact P. }
    exists (apply_t (concat (map expand (split_groups pls qls'))) M0). split.
    + rewrite (decode_request_rep sch r pls qls' body codec gz M0 Hv Hp Hq' Hnone Hb). exact (admissible_ok gs Hok _ M0 A').
    + exact (order_free_t gs Hok _ _ M0 A' A0).
Qed.
End RoundTripRep.

Definition xo_float (_ : bool) (_ : bytes) : option N := None.
Definition xo_wkt (_ : wkt) (_ : bool) (_ : bytes) : option subtree := None.
(* message Root { string n = 1; repeated int32 r = 5; oneof o { string a = 6; int32 b = 7; Inner s = 8; } }
   message Inner { string t = 1; } *)
Definition x_n := mkField 1 [110] [110] KString Singular None false.
Definition x_r := mkField 5 [114] [114] KInt32 Repeated None false.
Definition x_a := mkField 6 [97] [97] KString Singular (Some 0%nat) true.
Definition x_b := mkField 7 [98] [98] KInt32 Singular (Some 0%nat) true.
Definition x_s := mkField 8 [115] [115] (KMessage 1) Singular (Some 0%nat) true.
Definition x_t := mkField 1 [116] [116] KString Singular None false.
Definition x_root := [x_n; x_r; x_a; x_b; x_s].
Definition x_sch := mkSchema [mkMsg WNone x_root; mkMsg WNone [x_t]] [].
Definition p_r (z : Z) : param := ([(x_root, x_r)], PScalar (SInt z)).
Definition p_n : param := ([(x_root, x_n)], PScalar (SStr [120])).

(* ?r=1&n=x&r=2&r=3 and ?r=1&r=2&n=x&r=3 (and n first): the same message *)
Definition x_msg : msg :=
  [([5], EList [IScalar (SInt 1); IScalar (SInt 2); IScalar (SInt 3)]); ([1], ELeaf (SStr [120]))].
Example ex_rep_interleaved :
  params_set [p_r 1; p_n; p_r 2; p_r 3] [] = Ok x_msg /\
  params_set [p_r 1; p_r 2; p_n; p_r 3] [] = Ok x_msg /\
  params_set [p_n; p_r 1; p_r 2; p_r 3] [] = Ok x_msg.
Proof. vm_compute. repeat split; reflexivity. Qed.

(* these lists are admissible for the leaves r = [1; 2; 3], n = "x", and the leaves satisfy the
   hypotheses of the theorems *)
Definition x_gs : list leafg :=
  [([(x_root, x_r)], [PScalar (SInt 1); PScalar (SInt 2); PScalar (SInt 3)]); ([(x_root, x_n)], [PScalar (SStr [120])])].
Example ex_rep_admissible :
  admissible x_gs [p_r 1; p_n; p_r 2; p_r 3] /\ admissible x_gs [p_r 1; p_r 2; p_n; p_r 3] /\
  admissible x_gs [p_n; p_r 1; p_r 2; p_r 3].
Proof.
  split; [|split].
  - exists [(0%nat, p_r 1); (1%nat, p_n); (0%nat, p_r 2); (0%nat, p_r 3)]. split; [reflexivity|].
    intros [|[|[|k]]]; reflexivity.
  - exists [(0%nat, p_r 1); (0%nat, p_r 2); (1%nat, p_n); (0%nat, p_r 3)]. split; [reflexivity|].
    intros [|[|[|k]]]; reflexivity.
  - exists [(1%nat, p_n); (0%nat, p_r 1); (0%nat, p_r 2); (0%nat, p_r 3)]. split; [reflexivity|].
    intros [|[|[|k]]]; reflexivity.
Qed.
Example ex_rep_leaves_ok : leaves_ok x_gs.
Proof.
  split.
  - intros g [<-|[<-|[]]]; reflexivity.
  - intros i j gi gj Hij Hi Hj.
    destruct i as [|[|i]]; destruct j as [|[|j]]; cbn in Hi, Hj; try congruence;
      try (destruct i; discriminate); try (destruct j; discriminate);
      inversion Hi; inversion Hj; subst; (split; [reflexivity|]);
      unfold coherent; intros E; vm_compute in E; discriminate E.
Qed.

(* the same through the whole request, body "*" carrying a = "old": the two iteration orders of the
   query give messages with the same entries *)
Definition x_rule := mkRule 0 [] BStar.
Definition x_body : subtree := [([6], ELeaf (SStr [111; 108; 100]))].
Definition x_unm (_ _ : nat) (_ : bytes) : option subtree := Some x_body.
Definition x_infl (b : bytes) : option bytes := Some b.
Definition x_req (q : list (bytes * list bytes)) : request := mkReq [] q (Some []) (Some 0%nat) false.
Definition x_serve (q : list (bytes * list bytes)) : outcome msg :=
  decode_request xo_float xo_wkt x_unm x_infl x_sch x_rule (x_req q).
Example ex_rep_request :
  x_serve [([114], [[49]; [50]; [51]]); ([110], [[120]])] =
    Ok [([1], ELeaf (SStr [120])); ([5], EList [IScalar (SInt 1); IScalar (SInt 2); IScalar (SInt 3)]);
        ([6], ELeaf (SStr [111; 108; 100]))] /\
  x_serve [([110], [[120]]); ([114], [[49]; [50]; [51]])] =
    Ok [([5], EList [IScalar (SInt 1); IScalar (SInt 2); IScalar (SInt 3)]); ([1], ELeaf (SStr [120]));
        ([6], ELeaf (SStr [111; 108; 100]))].
Proof. vm_compute. split; reflexivity. Qed.

Definition x_qls : list rqleaf :=
  [([114], [(x_root, x_r)], [([49], PScalar (SInt 1)); ([50], PScalar (SInt 2)); ([51], PScalar (SInt 3))]);
   ([110], [(x_root, x_n)], [([120], PScalar (SStr [120]))])].
Example ex_rep_roundtrip_hyps :
  r_vars x_rule = map (fun l => fst (fst l)) ([] : list pleaf) /\
  Forall (pleaf_ok xo_float xo_wkt x_sch) [] /\
  Forall (rqleaf_ok xo_float xo_wkt x_sch (msg_fields x_sch (r_input x_rule))) x_qls /\
  split_groups [] x_qls = x_gs /\
  map rqleaf_query x_qls = [([114], [[49]; [50]; [51]]); ([110], [[120]])] /\
  body_image x_rule (Some x_body) = Ok x_body.
Proof.
  split; [reflexivity|]. split; [constructor|]. split.
  - repeat constructor.
  - repeat split; reflexivity.
Qed.

(* oneof: the body carries a = "old".  ?b=5 leaves no entry for a; ?s.t=z (Mutable on the way)
   neither *)
Example ex_oneof_cleared :
  x_serve [([98], [[53]])] = Ok [([7], ELeaf (SInt 5))] /\
  x_serve [([115; 46; 116], [[122]])] = Ok [([8; 1], ELeaf (SStr [122])); ([8], EPresent)].
Proof. vm_compute. split; reflexivity. Qed.

(* two keys for two members of one oneof: the last one in map order wins -- such requests are
   outside the theorems (oneof_members_touch) *)
Example ex_oneof_race :
  x_serve [([98], [[53]]); ([97], [[120]])] = Ok [([6], ELeaf (SStr [120]))] /\
  x_serve [([97], [[120]]); ([98], [[53]])] = Ok [([7], ELeaf (SInt 5))] /\
  untouched [(x_root, x_b)] (steps_path [(x_root, x_a)]) = false.
Proof. vm_compute. repeat split; reflexivity. Qed.

Example ex_oneof_hyps :
  leaves_ok [([(x_root, x_b)], [PScalar (SInt 5)])] /\
  sibs x_root x_b = [6; 8] /\
  leaves_ok [([(x_root, x_s); ([x_t], x_t)], [PScalar (SStr [122])])] /\
  sibs x_root x_s = [6; 7].
Proof.
  assert (H : forall g : leafg, walkable (fst g) = true -> leaves_ok [g]).
  { intros g W. split.
    - intros g' [<-|[]]. exact W.
    - intros i j gi gj Hij Hi Hj. destruct i as [|i]; destruct j as [|j]; try congruence;
        cbn in Hi, Hj; try (destruct i; discriminate); destruct j; discriminate. }
  split; [apply H; reflexivity|]. split; [reflexivity|]. split; [apply H; reflexivity|reflexivity].
Qed.

(* why coherence is asked: two field paths that walk field 8 as a member of the oneof {6, 7, 8}
   (the first) and as a plain field (the second) do not touch each other, but whichever comes
   first decides whether field 6 is cleared *)
Definition x_s' := mkField 8 [115] [115] (KMessage 1) Singular None true.
Definition x_u := mkField 2 [117] [117] KString Singular None false.
Definition p_st : param := ([(x_root, x_s); ([x_t], x_t)], PScalar (SStr [122])).
Definition p_su : param := ([([x_n; x_s'], x_s'); ([x_t; x_u], x_u)], PScalar (SStr [122])).
Definition at6 (o : outcome msg) : option (option entry) := match o with Ok M => Some (lookup [6] M) | _ => None end.
Example ex_incoherent_race :
  untouched (fst p_st) (steps_path (fst p_su)) = true /\ untouched (fst p_su) (steps_path (fst p_st)) = true /\
  at6 (params_set [p_st; p_su] x_body) = Some None /\
  at6 (params_set [p_su; p_st] x_body) = Some (Some (ELeaf (SStr [111; 108; 100]))).
Proof. vm_compute. repeat split; reflexivity. Qed.
