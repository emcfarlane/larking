(* The trailer block of gRPC-web (Model/TrailerBlock.v): parse_block reads back what write_block
   wrote, field by field, for every value and every key that is `key_ok` (no line break, no colon):
   line breaks in values do not survive `wire_value`, so a value cannot start a field. *)
From Coq Require Import List NArith Bool.
From Larking Require Import Model.TrailerBlock.
Import ListNotations.
Local Open Scope N_scope.

Lemma forallb_rev {A} (f : A -> bool) l : forallb f (rev l) = forallb f l.
Proof.
  induction l as [|a l IH]; cbn [rev forallb]; [reflexivity|]. rewrite forallb_app, IH. cbn [forallb]. rewrite andb_true_r. apply andb_comm.
Qed.

Lemma forallb_drop_ws (f : N -> bool) l : forallb f l = true -> forallb f (drop_ws l) = true.
Proof.
  induction l as [|c l IH]; cbn [drop_ws forallb]; [reflexivity|]. intros H. destruct (is_ws c); [|exact H].
  apply andb_prop in H as [_ H]. exact (IH H).
Qed.

Lemma forallb_trim_ws (f : N -> bool) l : forallb f l = true -> forallb f (trim_ws l) = true.
Proof.
  intros H. unfold trim_ws. rewrite forallb_rev. apply forallb_drop_ws. rewrite forallb_rev. apply forallb_drop_ws. exact H.
Qed.

Lemma wire_value_no_nl v : forallb (fun c => negb (is_nl c)) (wire_value v) = true.
Proof.
  unfold wire_value. apply forallb_trim_ws. induction v as [|c v IH]; cbn [map forallb]; [reflexivity|]. rewrite IH, andb_true_r.
  destruct (is_nl c) eqn:E; [reflexivity | now rewrite E].
Qed.

Lemma drop_ws_id l : match l with c :: _ => is_ws c = false | [] => True end -> drop_ws l = l.
Proof. destruct l as [|c r]; cbn [drop_ws]; [reflexivity|]. now intros ->. Qed.

(* a value that has no line break and neither begins nor ends with blank space travels as it is *)
Lemma wire_value_id v : forallb (fun c => negb (is_nl c)) v = true ->
  match v with c :: _ => is_ws c = false | [] => True end ->
  match rev v with c :: _ => is_ws c = false | [] => True end -> wire_value v = v.
Proof.
  intros H Hh Ht. unfold wire_value.
  replace (map (fun c => if is_nl c then 32 else c) v) with v.
  - unfold trim_ws. rewrite (drop_ws_id v Hh), (drop_ws_id (rev v) Ht). apply rev_involutive.
  - clear Hh Ht. induction v as [|c v IH]; cbn [map forallb] in *; [reflexivity|]. apply andb_prop in H as [Hc Hv].
    rewrite <- (IH Hv). apply negb_true_iff in Hc. now rewrite Hc.
Qed.

Definition no_lf (l : bytes) : Prop := forallb (fun c => negb (c =? 10)) l = true.

Lemma split_lf_line l : forall cur rest, no_lf l ->
  split_lf cur (l ++ 10 :: rest) = (rev cur ++ l) :: split_lf [] rest.
Proof.
  induction l as [|c l IH]; intros cur rest H; cbn [app split_lf].
  - rewrite N.eqb_refl, app_nil_r. reflexivity.
  - unfold no_lf in H. cbn [forallb] in H. apply andb_prop in H as [Hc Hl]. apply negb_true_iff in Hc. rewrite Hc.
    rewrite (IH (c :: cur) rest Hl). cbn [rev]. now rewrite <- app_assoc.
Qed.

Definition key_ok (k : bytes) : Prop := forallb (fun c => negb (is_nl c) && negb (c =? 58)) k = true.

Lemma cut_colon_key k : forall acc rest, key_ok k ->
  cut_colon acc (k ++ 58 :: rest) = Some (rev acc ++ k, match rest with 32 :: r' => r' | _ => rest end).
Proof.
  induction k as [|c k IH]; intros acc rest H; cbn [app cut_colon].
  - rewrite N.eqb_refl, app_nil_r. reflexivity.
  - unfold key_ok in H. cbn [forallb] in H. apply andb_prop in H as [Hc Hk]. apply andb_prop in Hc as [_ Hc].
    apply negb_true_iff in Hc. rewrite Hc. rewrite (IH (c :: acc) rest Hk). cbn [rev]. now rewrite <- app_assoc.
Qed.

Lemma forallb_impl {A} (f g : A -> bool) l : (forall x, f x = true -> g x = true) -> forallb f l = true -> forallb g l = true.
Proof. intros H. rewrite !forallb_forall. auto. Qed.

Lemma no_nl_no_lf l : forallb (fun c => negb (is_nl c)) l = true -> no_lf l.
Proof. apply forallb_impl. intros c H. unfold is_nl in H. now destruct (c =? 10). Qed.

Lemma key_no_nl k : key_ok k -> forallb (fun c => negb (is_nl c)) k = true.
Proof. apply forallb_impl. intros c H. now apply andb_prop in H. Qed.

Lemma drop_cr_snoc l : drop_cr (l ++ [13]) = l.
Proof. unfold drop_cr. rewrite rev_app_distr. cbn [rev app]. now rewrite rev_involutive. Qed.

(* no field can be forged through a value: the client reads back exactly the fields that were written, each value on
   one line, whatever bytes the handler put into the values *)
Lemma parse_write l : Forall (fun kv => key_ok (fst kv)) l ->
  parse_block (write_block l) = map (fun kv => Some (fst kv, wire_value (snd kv))) l.
Proof.
  unfold parse_block, write_block. induction 1 as [|[k v] l Hk _ IH]; cbn [map concat]; [reflexivity|].
  cbn [fst snd] in *. unfold write_line at 1. cbn [fst snd].
  replace ((k ++ [58; 32] ++ wire_value v ++ [13; 10]) ++ concat (map write_line l))
    with ((k ++ [58; 32] ++ wire_value v ++ [13]) ++ 10 :: concat (map write_line l))
    by (repeat rewrite <- app_assoc; cbn [app]; reflexivity).
  rewrite split_lf_line.
  - change (rev (@nil N)) with (@nil N). rewrite app_nil_l. cbn [map]. rewrite IH. f_equal.
    replace (k ++ [58; 32] ++ wire_value v ++ [13]) with ((k ++ 58 :: 32 :: wire_value v) ++ [13])
      by (repeat rewrite <- app_assoc; cbn [app]; reflexivity).
    rewrite drop_cr_snoc. rewrite cut_colon_key by exact Hk. reflexivity.
  - unfold no_lf. rewrite !forallb_app, (no_nl_no_lf _ (key_no_nl _ Hk)), (no_nl_no_lf _ (wire_value_no_nl v)). reflexivity.
Qed.

Example forged_value :
  parse_block (write_block [([120;45;116], [98;121;101;13;10;103;114;112;99;45;115;116;97;116;117;115;58;32;49;51])])
  = [Some ([120;45;116], [98;121;101;32;32;103;114;112;99;45;115;116;97;116;117;115;58;32;49;51])].
Proof. vm_compute. reflexivity. Qed.
