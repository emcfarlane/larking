(* The routing theorems proper: what route returns on any trie that registration can build
   (soundness, completeness), and when a binding is accepted. Composition of LexerProofs,
   MatchProofs and TrieProofs. *)
From Larking Require Import Base.GoSem Model.Lexer Model.Trie Model.Match Spec.Grammar Spec.Route
  Proofs.LexerProofs Proofs.MatchProofs Proofs.TrieProofs.
Local Open Scope N_scope.

Section Routing.
Variables isLetter isNumber : N -> bool.
Variable resolves body_ok resp_ok : str -> list str -> bool.
Variable okconv : list str -> str -> bool.
Hypothesis sane : Sane isLetter isNumber.

Notation PatG := (PatG isLetter isNumber).
Notation edge_gram := (edge_gram isLetter isNumber).
Notation Inv := (Inv isLetter isNumber resolves).
Notation compiled := (compiled isLetter isNumber resolves).
Notation route := (route okconv isLetter isNumber).
Notation add_binding := (add_binding resolves body_ok resp_ok isLetter isNumber).
Notation leaf := (leaf resolves body_ok resp_ok).

Lemma keys_inj es1 : forall es2, Forall edge_gram es1 -> Forall edge_gram es2 -> keys es1 = keys es2 -> es1 = es2.
Proof.
  induction es1 as [|e1 es1 IH]; intros [|e2 es2] H1 H2 E; try discriminate; auto.
  inversion H1; subst. inversion H2; subst. cbn in E. inversion E as [[Ek Er]].
  rewrite (IH es2) by assumption. f_equal.
  destruct e1 as [k1|p1], e2 as [k2|p2]; cbn in Ek; try discriminate; inversion Ek; subst; auto.
  match goal with G1 : edge_gram (EVar p1), G2 : edge_gram (EVar p2) |- _ => destruct G1 as [b1 G1]; destruct G2 as [b2 G2] end.
  f_equal. eapply (PSegs_spell_inj isLetter isNumber sane); eauto.
Qed.

Lemma walk_Reach es : forall nd k nd', WFn PatG k nd -> Forall edge_gram es -> walk_to es nd = Some nd' -> Reach nd es nd'.
Proof.
  induction es as [|[key|pat] es IH]; intros nd k nd' Hw Hg H; cbn in H.
  - inversion H; subst. constructor.
  - inversion Hg; subst. destruct (proj1 (WFn_inv _ _ _) Hw) as (W1 & _).
    destruct (assoc key (n_segs nd)) as [c|] eqn:Ea; [|discriminate].
    eapply R_lit; [exact Ea|]. eapply IH; eauto. apply (W1 key c). now apply assoc_in.
  - inversion Hg as [|e l Hp Hg']; subst. destruct (proj1 (WFn_inv _ _ _) Hw) as (_ & W2 & _).
    destruct (find_var (spell pat) (n_vars nd)) as [c|] eqn:Ea; [|discriminate].
    destruct (find_var_in _ _ _ Ea) as (pat' & Hin & Hs). destruct (W2 pat' c Hin) as [[b' G'] Wc].
    destruct Hp as [b G].
    assert (pat' = pat) by (eapply (PSegs_spell_inj isLetter isNumber sane); eauto). subst pat'.
    eapply R_var; [exact Hin|]. eapply IH; eauto.
Qed.

Definition covers_verb (rule_verb req_verb : str) : Prop := rule_verb = req_verb \/ rule_verb = star_verb.

Lemma bound_stored verb nd m : bound_at verb nd = Some m -> exists key, stored (info nd) key m /\ covers_verb key verb.
Proof.
  unfold bound_at, stored, info, covers_verb. cbn [fst snd]. destruct (assoc verb (n_meths nd)) as [m0|] eqn:Ea.
  - intros [= <-]. exists verb. auto.
  - intros H. exists star_verb. auto.
Qed.
Lemma stored_bound verb nd key m : assoc star_verb (n_meths nd) = None ->
  stored (info nd) key m -> covers_verb key verb -> exists m', bound_at verb nd = Some m'.
Proof.
  unfold bound_at, stored, info. cbn [fst snd]. intros Hn Hs Hcov.
  destruct (assoc verb (n_meths nd)) as [m0|] eqn:Ea; [eauto|].
  destruct Hs as [[_ Hs]|Hs]; [eauto|]. destruct Hcov as [->| ->]; congruence.
Qed.

(* C01: a request only reaches a method whose rule covers it *)
Theorem dispatch_sound L root verb p m caps :
  Inv L root -> route root verb p = Ok (m, caps) ->
  exists mid b es toks,
    In (mid, b) L /\ m_id m = mid /\ covers_verb (b_verb b) verb /\ m_body m = b_body b /\
    compiled mid b es (m_vars m) /\
    lex_path isLetter isNumber (normalise p) = Ok toks /\ MatchEdges es toks caps.
Proof.
  intros HI H. unfold Match.route in H.
  destruct (lex_path isLetter isNumber (normalise p)) as [toks| | |] eqn:El; try discriminate.
  destruct (search_sound okconv _ _ _ _ _ H) as (es & nd' & HR & HB & HM). cbn [fst snd] in HB, HM.
  destruct (Reach_walk PatG _ _ _ HR 0%nat (inv_wf _ _ _ _ _ HI)) as (Hw & _ & Hes).
  destruct (bound_stored _ _ _ HB) as (key & Hs & Hkey).
  destruct (inv_prov _ _ _ _ _ HI es _ key m (info_at_walk _ _ _ Hw) Hs) as (mid & b & es' & A & B & C & D & E & F).
  assert (es = es') by (apply keys_inj; [exact Hes|apply (compiled_good _ _ _ _ _ _ _ E)|exact F]). subst es'.
  subst key. exists mid, b, es, toks. auto 8.
Qed.

(* the search never panics and never runs out of fuel on a trie registration built *)
Theorem route_total L root verb p : Inv L root -> benign (route root verb p).
Proof using. clear body_ok resp_ok.
  intros HI. unfold Match.route.
  pose proof (lex_path_benign isLetter isNumber (normalise p)) as Hl.
  destruct (lex_path isLetter isNumber (normalise p)) as [toks| | |]; cbn in Hl; try contradiction; [|exact I].
  eapply search_total; [exact (Inv_TrieInv _ _ _ _ _ HI)|lia].
Qed.

Hypothesis conv_all : forall fp t, okconv fp t = true.

(* C02: a registered rule that covers the request is served *)
Theorem dispatch_complete L root verb p mid b es vfs toks caps :
  Inv L root -> In (mid, b) L -> covers_verb (b_verb b) verb ->
  compiled mid b es vfs -> lex_path isLetter isNumber (normalise p) = Ok toks -> MatchEdges es toks caps ->
  exists r, route root verb p = Ok r.
Proof.
  intros HI Hin Hcov Hc El HM.
  destruct (inv_present _ _ _ _ _ HI mid b Hin) as (es1 & vfs1 & i & m & Hc1 & Hi & Hs & Hm).
  destruct (compiled_fun _ _ _ _ _ _ _ _ _ Hc1 Hc) as [-> ->].
  destruct (compiled_good _ _ _ _ _ _ _ Hc) as [_ Hes].
  unfold info_at in Hi. destruct (walk_to es root) as [nd'|] eqn:Hw; [|discriminate]. inversion Hi; subst i.
  pose proof (walk_Reach es root 0%nat nd' (inv_wf _ _ _ _ _ HI) Hes Hw) as HR.
  destruct (stored_bound verb nd' _ m (inv_nostar _ _ _ _ _ HI es _ (info_at_walk _ _ _ Hw)) Hs Hcov) as [m' HB].
  unfold Match.route. rewrite El.
  eapply (search_complete okconv conv_all verb es toks caps HM (S (length toks)) root 0%nat nd' m'); auto.
  exact (Inv_TrieInv _ _ _ _ _ HI).
Qed.

(* C16: when a binding is accepted *)

(* the template of a binding is well-formed: a derivation of the grammar that spells it, within the token cap *)
Definition tmpl_wf (t : str) : Prop :=
  exists toks, Tmpl isLetter isNumber toks /\ spell toks = t /\ (length toks <= 64)%nat.

(* a malformed template is refused *)
Theorem reject_malformed mid root b : ~ tmpl_wf (b_tmpl b) -> exists e, add_binding mid root b = Err e.
Proof.
  intros Hn. unfold Trie.add_binding.
  pose proof (lex_template_benign isLetter isNumber (b_tmpl b)) as Hb.
  destruct (lex_template isLetter isNumber (b_tmpl b)) as [toks|e| |] eqn:El; cbn in Hb; try contradiction.
  - exfalso. apply Hn. exists toks. now apply lex_template_sound.
  - cbn. eauto.
Qed.

(* a well-formed template is lexed into exactly its derivation *)
Theorem accept_lex b toks : Tmpl isLetter isNumber toks -> spell toks = b_tmpl b -> (length toks <= 64)%nat ->
  lex_template isLetter isNumber (b_tmpl b) = Ok toks.
Proof. intros HT Hs Hl. rewrite <- Hs. now apply lex_template_complete. Qed.

(* a binding that would sit where another method already has a binding under an overlapping verb is refused *)
Theorem reject_conflict L root mid b es vfs i key m :
  Inv L root -> compiled mid b es vfs ->
  info_at root es = Some i -> stored i key m -> m_id m <> mid -> overlap key (b_verb b) ->
  exists e, add_binding mid root b = Err e.
Proof.
  intros HI Hc Hi Hs Hne Hov. rewrite (compiled_add _ _ _ _ _ _ _ _ _ root Hc), upd_eq.
  rewrite (info_leaf_of _ _ _ Hi) in Hs.
  destruct (leaf_rejects_conflict resolves body_ok resp_ok mid b vfs _ key m
              (inv_nostar_leaf _ _ _ _ _ es HI) Hs Hne Hov) as [e ->]. cbn. eauto.
Qed.

(* the node a template leads to holds no binding of another method under an overlapping verb *)
Definition no_foreign (mid verb : str) (nd : node) : Prop :=
  (forall y, n_mall nd = Some y -> m_id y = mid) /\
  (verb = star_verb -> forall k m, In (k, m) (n_meths nd) -> m_id m = mid) /\
  (forall y, assoc verb (n_meths nd) = Some y -> m_id y = mid).

Lemma no_foreign_ok mid verb nd : no_foreign mid verb nd -> foreign mid nd verb = false.
Proof.
  intros (F1 & F2 & F3). unfold foreign. apply orb_false_iff. split.
  - destruct (n_mall nd) as [y|]; [apply conflict_own|]; auto.
  - destruct (str_eqb verb star_verb) eqn:Ev.
    + apply str_eqb_eq in Ev. apply existsb_false. intros [k m] Hin. exact (conflict_own _ _ (F2 Ev k m Hin)).
    + destruct (assoc verb (n_meths nd)) as [y|]; [apply conflict_own|]; auto.
Qed.

Lemma owned_no_foreign mid verb nd : NoDup (map fst (n_meths nd)) ->
  (forall key m, stored (info nd) key m -> overlap key verb -> m_id m = mid) -> no_foreign mid verb nd.
Proof.
  intros Hnd Hst. split; [|split].
  - intros y Hy. apply (Hst star_verb y); [left; split; [reflexivity|exact Hy]|right; left; reflexivity].
  - intros Hv k m Hin. apply (Hst k m); [right; now apply nodup_assoc|right; right; exact Hv].
  - intros y Hy. apply (Hst verb y); [right; exact Hy|left; reflexivity].
Qed.

(* a binding whose template is well-formed and resolves, whose selectors are usable and which meets
   no other method's binding is accepted; afterwards it is served (Inv_step, dispatch_complete) *)
Theorem accept_binding root mid b es vfs :
  compiled mid b es vfs -> no_foreign mid (b_verb b) (leaf_of root es) ->
  (match b_body b with BField p => resolves mid p && body_ok mid p | _ => true end = true) ->
  (match b_resp b with [] => true | p => resp_ok mid p end = true) ->
  exists root', add_binding mid root b = Ok root'.
Proof.
  intros Hc Hf Hbody Hresp. rewrite (compiled_add _ _ _ _ _ _ _ _ _ root Hc), upd_eq.
  pose proof (leaf_cases resolves body_ok resp_ok mid b vfs (leaf_of root es)) as X.
  destruct (leaf mid b vfs (leaf_of root es)); [cbn; eauto| |contradiction..].
  unfold selectors_fine in X. rewrite Hbody, Hresp, (no_foreign_ok _ _ _ Hf) in X. now destruct X.
Qed.

(* a template whose field paths do not resolve in the request type is refused *)
Theorem reject_unresolved mid root b toks e :
  lex_template isLetter isNumber (b_tmpl b) = Ok toks -> compile resolves (S (length toks)) mid toks = Err e ->
  add_binding mid root b = Err e.
Proof. intros El Ec. unfold Trie.add_binding. rewrite El. cbn [bind]. now rewrite Ec. Qed.

(* an unusable body or response_body selector is refused -- also when the pattern is already bound by
   the method: the selectors are checked before the duplicate test *)
Theorem reject_bad_selector root mid b es vfs :
  compiled mid b es vfs -> selectors_fine resolves body_ok resp_ok mid b = false ->
  exists e, add_binding mid root b = Err e.
Proof.
  intros Hc Hbad. rewrite (compiled_add _ _ _ _ _ _ _ _ _ root Hc), upd_eq.
  pose proof (leaf_cases resolves body_ok resp_ok mid b vfs (leaf_of root es)) as X.
  destruct (leaf mid b vfs (leaf_of root es)); [|cbn; eauto|contradiction..].
  destruct X as [X _]. congruence.
Qed.

(* an additional binding that has additional bindings of its own is refused *)
Lemma add_additional_nested mid : forall adds root a,
  In a adds -> b_nested a = true -> exists e, Trie.add_additional resolves body_ok resp_ok isLetter isNumber mid root adds = Err e.
Proof.
  induction adds as [|x adds IH]; intros root a Hin Hn; [contradiction|]. cbn.
  destruct (b_nested x) eqn:Ex; [eauto|].
  destruct Hin as [->|Hin]; [congruence|].
  pose proof (add_binding_benign isLetter isNumber resolves body_ok resp_ok mid root x) as B.
  destruct (add_binding mid root x) as [r1|e| |]; cbn in B; try contradiction; cbn [bind]; eauto.
Qed.
Theorem reject_nested mid root r a :
  In a (h_adds r) -> b_nested a = true ->
  exists e, Trie.add_rule resolves body_ok resp_ok isLetter isNumber mid root r = Err e.
Proof.
  intros Hin Hn. unfold Trie.add_rule.
  pose proof (add_binding_benign isLetter isNumber resolves body_ok resp_ok mid root (h_main r)) as B.
  destruct (add_binding mid root (h_main r)) as [r1|e| |]; cbn in B; try contradiction; cbn [bind]; eauto.
  eapply add_additional_nested; eauto.
Qed.

(* every trie that a history of registerService calls publishes *)
Fixpoint run_services (root : node) (svcs : list (list mdecl)) : node :=
  match svcs with
  | [] => root
  | ds :: rest => run_services (fst (Trie.register_service resolves body_ok resp_ok isLetter isNumber root ds)) rest
  end.

Theorem published_Inv : forall svcs L root, Inv L root ->
  exists L', Inv (L' ++ L) (run_services root svcs) /\
    forall x, In x L' -> exists ds, In ds svcs /\ decls_regs ds x.
Proof.
  induction svcs as [|ds svcs IH]; intros L root HI; cbn [run_services].
  - exists []. split; auto. intros x [].
  - destruct (register_service_Inv isLetter isNumber resolves body_ok resp_ok L root ds HI) as (A & HI1 & HA).
    destruct (IH _ _ HI1) as (B & HI2 & HB). exists (B ++ A). split; [now rewrite <- app_assoc|].
    intros x Hx. apply in_app_or in Hx. destruct Hx as [Hx|Hx].
    + destruct (HB x Hx) as (ds' & Hd & Hr). exists ds'. split; [now right|auto].
    + exists ds. split; [now left|auto].
Qed.

End Routing.
