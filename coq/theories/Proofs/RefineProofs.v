(* The abstract routing map of Model/Registry.v (t_find, t_lookup, t_add, t_add_rule(s), t_del: Spec/AbsTrie.v
   generically, Registry being the instance at nat) is an abstraction of the concrete trie of Model/Trie.v and
   Model/TrieDel.v: the concrete operations commute with the abstraction, with no side condition, along every
   history of registerService / removeHandler.
   An abstract node is a list of edge keys (TrieProofs.keys es: the edge path of a concrete node up to the
   spelling of patterns), a verb is the verb string, "*" = star_verb, a method is its name.  [cfind root es v] is
   the name of the method the node at es stores under v.  Abs relates a trie and a map that hold the same
   bindings, AbsR those in which every key resolves alike; Good is what every trie of a history satisfies.
   Module RefineExample holds the two ways in which the looser duplicate check AbsTrie.a_add_loose departs from
   larking/rules.go. *)
From Larking Require Import Base.GoSem Model.Lexer Model.Trie Model.Match Model.TrieDel Spec.Grammar Spec.Route
  Proofs.LexerProofs Proofs.MatchProofs Proofs.TrieProofs Proofs.RoutingProofs Proofs.OrderProofs Proofs.AcceptProofs
  Proofs.DelProofs
  Spec.AbsTrie.
From Larking Require Model.Registry.
Local Open Scope N_scope.

(* the key type of the abstract map: a node named by its edge path up to the spelling of patterns *)
Definition ekey_eqb (a b : ekey) : bool :=
  match a, b with
  | KLit x, KLit y => str_eqb x y
  | KVar x, KVar y => str_eqb x y
  | _, _ => false
  end.
Lemma ekey_eqb_eq a b : ekey_eqb a b = true <-> a = b.
Proof.
  destruct a as [x|x], b as [y|y]; cbn [ekey_eqb]; rewrite ?str_eqb_eq; split; intros H; try discriminate; try congruence.
Qed.
Definition nkey := list ekey.
Definition nkey_eqb : nkey -> nkey -> bool := list_eqb ekey_eqb.
Lemma nkey_eqb_eq a b : nkey_eqb a b = true <-> a = b.
Proof. apply (list_eqb_eq ekey_eqb ekey_eqb_eq). Qed.
Lemma nkey_eqb_refl a : nkey_eqb a a = true.
Proof. exact (eqb_refl_of _ nkey_eqb_eq a). Qed.
Lemma nkey_eqb_neq a b : nkey_eqb a b = false <-> a <> b.
Proof. exact (eqb_neq_of _ nkey_eqb_eq a b). Qed.

(* every key names a node position: keys is onto *)
Lemma keys_onto (ks : nkey) : exists es, keys es = ks.
Proof.
  induction ks as [|k ks [es IH]]; [exists []; reflexivity|].
  destruct k as [s|s].
  - exists (ELit s :: es). cbn. now rewrite <- IH.
  - exists (EVar [Tok TLiteral s] :: es). unfold keys in *. cbn [map edge_key]. now rewrite spell_lit, IH.
Qed.

Notation ctrie := (atrie nkey str str).
Notation ckey := (akey nkey str).
Notation c_find := (a_find nkey str str nkey_eqb str_eqb).
Notation c_lookup := (a_lookup nkey str str nkey_eqb str_eqb star_verb).
Notation c_add := (a_add nkey str str nkey_eqb str_eqb str_eqb star_verb).
Notation c_add_all := (a_add_all nkey str str nkey_eqb str_eqb str_eqb star_verb).
Notation c_add_rule := (a_add_rule nkey str str nkey_eqb str_eqb str_eqb star_verb).
Notation c_add_rules := (a_add_rules nkey str str nkey_eqb str_eqb str_eqb star_verb).
Notation c_del := (a_del nkey str str str_eqb).
Notation c_append := (a_append nkey str str nkey_eqb str_eqb str_eqb star_verb).
Notation c_register := (a_register nkey str str nkey_eqb str_eqb str_eqb star_verb).
Notation c_register_service := (a_register_service nkey str str nkey_eqb str_eqb str_eqb star_verb).
Notation c_add_loose := (a_add_loose nkey str str nkey_eqb str_eqb str_eqb star_verb).
Notation c_owned := (a_owned nkey str str nkey_eqb str_eqb).
Notation c_other := (a_other str str_eqb).
Notation sdel := (odel str_eqb).

Lemma str_eqb_sym a b : str_eqb a b = str_eqb b a.
Proof. exact (eqb_sym_of _ str_eqb_eq a b). Qed.
Lemma nkey_eqb_sym a b : nkey_eqb a b = nkey_eqb b a.
Proof. exact (eqb_sym_of _ nkey_eqb_eq a b). Qed.

(* the content of a concrete trie as a function of (edge path, verb) *)
Definition iown (v : str) (i : list (str * minfo) * option minfo) : option minfo :=
  if str_eqb v star_verb then snd i else assoc v (fst i).
Definition om (o : option minfo) : option str := option_map m_id o.
Definition cfind (root : node) (es : list edge) (v : str) : option str :=
  match info_at root es with Some i => om (iown v i) | None => None end.
Definition clookup (root : node) (es : list edge) (v : str) : option str :=
  oelse (cfind root es v) (cfind root es star_verb).

Lemma stored_iown v i m : assoc star_verb (fst i) = None -> stored i v m -> iown v i = Some m.
Proof.
  unfold iown, stored. intros Hn [[-> H]|H].
  - now rewrite str_eqb_refl.
  - destruct (str_eqb v star_verb) eqn:E; [apply str_eqb_eq in E; subst; congruence|exact H].
Qed.

(* the formulation with [stored]: the key (keys es, v) is bound to mid iff the node at es stores under v a
   binding of method mid *)
Definition nostar (root : node) : Prop := forall es i, info_at root es = Some i -> assoc star_verb (fst i) = None.
Lemma cfind_stored root es v mid : nostar root ->
  (cfind root es v = Some mid <-> exists i m, info_at root es = Some i /\ stored i v m /\ m_id m = mid).
Proof.
  intros Hn. unfold cfind. split.
  - destruct (info_at root es) as [i|] eqn:Ei; [|discriminate]. destruct (iown v i) as [m|] eqn:Eo; [|discriminate].
    cbn. intros H. injection H as <-. exists i, m. split; [reflexivity|]. split; [now apply own_stored|reflexivity].
  - intros (i & m & Ei & Hs & <-). rewrite Ei. rewrite (stored_iown v i m (Hn es i Ei) Hs). reflexivity.
Qed.

Lemma cfind_keys root es1 es2 v : keys es1 = keys es2 -> cfind root es1 v = cfind root es2 v.
Proof. intros H. unfold cfind. now rewrite (info_at_keys root es1 es2 H). Qed.
Lemma cfind_empty es v : cfind empty_node es v = None.
Proof.
  unfold cfind. destruct (info_at empty_node es) as [i|] eqn:Ei; [|reflexivity].
  apply info_at_empty in Ei. subst i. unfold om, iown. cbn. destruct (str_eqb v star_verb); reflexivity.
Qed.
Lemma cfind_leaf_of root es v : om (iown v (info (leaf_of root es))) = cfind root es v.
Proof.
  unfold cfind. destruct (info_at root es) as [i|] eqn:Ei.
  - now rewrite <- (info_leaf_of _ _ _ Ei).
  - rewrite (info_leaf_none _ _ Ei). unfold om, iown. cbn. destruct (str_eqb v star_verb); reflexivity.
Qed.

(* the binding search uses at a node *)
Lemma clookup_bound root es nd verb : nostar root -> walk_to es root = Some nd ->
  clookup root es verb = om (bound_at verb nd).
Proof.
  intros Hn Hw. assert (Ei : info_at root es = Some (info nd)) by (unfold info_at; now rewrite Hw).
  pose proof (Hn es _ Ei) as Hs. cbn [info fst] in Hs.
  unfold clookup, cfind. rewrite Ei. unfold iown, bound_at. rewrite str_eqb_refl. cbn [info fst snd].
  destruct (str_eqb verb star_verb) eqn:Ev.
  - apply str_eqb_eq in Ev. subst verb. rewrite Hs. destruct (n_mall nd); reflexivity.
  - destruct (assoc verb (n_meths nd)); reflexivity.
Qed.
Lemma clookup_absent root es verb : walk_to es root = None -> clookup root es verb = None.
Proof. intros Hw. unfold clookup, cfind, info_at. now rewrite Hw. Qed.


Definition cf_cons := a_find_cons nkey str str nkey_eqb str_eqb.
Definition cf_in := a_find_in nkey str str nkey_eqb str_eqb nkey_eqb_eq str_eqb_eq.
Definition cf_none := a_find_none nkey str str nkey_eqb str_eqb nkey_eqb_eq str_eqb_eq.
Definition cf_in_find := a_in_find nkey str str nkey_eqb str_eqb nkey_eqb_eq str_eqb_eq.
Definition cf_del := a_find_del nkey str str nkey_eqb str_eqb str_eqb nkey_eqb_eq str_eqb_eq.
Definition cl_del := a_lookup_del nkey str str nkey_eqb str_eqb str_eqb star_verb nkey_eqb_eq str_eqb_eq.
Definition cl_star := a_lookup_star nkey str str nkey_eqb str_eqb star_verb.
Definition ca_inv := a_add_inv nkey str str nkey_eqb str_eqb str_eqb star_verb str_eqb_eq str_eqb_eq.
Definition c_owned_true := a_owned_true nkey str str nkey_eqb str_eqb nkey_eqb_eq str_eqb_eq.
Definition c_other_false := a_other_false str str_eqb str_eqb_eq.
Definition ca_ok := a_add_ok nkey str str nkey_eqb str_eqb str_eqb star_verb.
Definition ca_err := a_add_err nkey str str nkey_eqb str_eqb str_eqb star_verb.
Definition ca_nodup := a_add_nodup nkey str str nkey_eqb str_eqb str_eqb star_verb nkey_eqb_eq str_eqb_eq str_eqb_eq.
Definition cd_nodup := a_del_nodup nkey str str str_eqb.

Lemma oelse_none_r (a : option str) : oelse a None = a.
Proof. destruct a; reflexivity. Qed.
Lemma oelse_same (a : option str) : oelse a a = a.
Proof. destruct a; reflexivity. Qed.

Section Refine.
Variables isLetter isNumber : N -> bool.
Variable resolves body_ok resp_ok : str -> list str -> bool.

Notation PatG := (PatG isLetter isNumber).
Notation Inv := (Inv isLetter isNumber resolves).
Notation compiled := (compiled isLetter isNumber resolves).
Notation leaf := (Trie.leaf resolves body_ok resp_ok).
Notation add_binding := (Trie.add_binding resolves body_ok resp_ok isLetter isNumber).
Notation add_additional := (Trie.add_additional resolves body_ok resp_ok isLetter isNumber).
Notation add_rule := (Trie.add_rule resolves body_ok resp_ok isLetter isNumber).
Notation add_rules := (Trie.add_rules resolves body_ok resp_ok isLetter isNumber).
Notation append_handler := (Trie.append_handler resolves body_ok resp_ok isLetter isNumber).
Notation register_methods := (Trie.register_methods resolves body_ok resp_ok isLetter isNumber).
Notation register_service := (Trie.register_service resolves body_ok resp_ok isLetter isNumber).
Notation lex_template := (lex_template isLetter isNumber).
Notation compile := (Trie.compile resolves).

Definition sel_fine (mid : str) (b : brule) : bool :=
  (match b_body b with BField p => resolves mid p && body_ok mid p | _ => true end) &&
  (match b_resp b with [] => true | p => resp_ok mid p end).

Lemma leaf_own mid b vfs nd nd' : leaf mid b vfs nd = Ok nd' ->
  forall v, om (iown v (info nd')) = if str_eqb v (b_verb b) then Some mid else om (iown v (info nd)).
Proof.
  intros H v. apply leaf_inv in H. destruct H as (_ & _ & [y Hs Hy|Hv Hm|Hv Ha]).
  - destruct (str_eqb v (b_verb b)) eqn:E; [|reflexivity]. apply str_eqb_eq in E. subst v.
    unfold iown, info. cbn [fst snd]. now rewrite Hs, <- Hy.
  - rewrite Hv. unfold iown, info. cbn [fst snd n_meths n_mall]. now destruct (str_eqb v star_verb).
  - unfold iown, info. cbn [fst snd n_meths n_mall]. rewrite assoc_snoc, (str_eqb_sym (b_verb b) v).
    destruct (str_eqb v (b_verb b)) eqn:E.
    + apply str_eqb_eq in E. subst v. apply str_eqb_neq in Hv. now rewrite Hv, Ha.
    + destruct (str_eqb v star_verb); [reflexivity|]. now destruct (assoc v (n_meths nd)).
Qed.

Definition idok (mid : str) (o : option str) : Prop := forall x, o = Some x -> x = mid.

(* when the leaf accepts: the selectors are fine, and every binding of the node that meets the verb
   (the "*" binding always, every binding when the verb is "*", else the verb's own) is of this method *)
Lemma leaf_ok_iff mid b vfs nd :
  assoc star_verb (n_meths nd) = None -> NoDup (map fst (n_meths nd)) ->
  (is_ok (leaf mid b vfs nd) = true <->
   sel_fine mid b = true /\ idok mid (om (iown star_verb (info nd))) /\
   (if str_eqb (b_verb b) star_verb then forall v, idok mid (om (iown v (info nd)))
    else idok mid (om (iown (b_verb b) (info nd))))).
Proof.
  intros Hns Hnd. rewrite leaf_ok, andb_true_iff, negb_true_iff. apply and_iff_compat_l. split.
  - intros Hf.
    assert (Hown : forall v, overlap v (b_verb b) -> idok mid (om (iown v (info nd)))).
    { intros v Ho x Hx. destruct (iown v (info nd)) as [m|] eqn:E; [|discriminate]. injection Hx as <-.
      exact (foreign_owned _ _ _ _ _ Hf Hns (own_stored _ _ _ E) Ho). }
    split; [apply Hown; right; now left|]. destruct (str_eqb (b_verb b) star_verb) eqn:Ev.
    + apply str_eqb_eq in Ev. intros v. apply Hown. right. now right.
    + apply Hown. now left.
  - intros [Hs Hv]. apply no_foreign_ok, owned_no_foreign; [exact Hnd|]. intros key m Hst Ho.
    apply (stored_iown key (info nd) m Hns) in Hst.
    assert (Hk : idok mid (om (iown key (info nd)))); [|apply Hk; now rewrite Hst].
    destruct Ho as [->|[->|Ho]]; [destruct (str_eqb (b_verb b) star_verb); [apply Hv|exact Hv]|exact Hs|].
    rewrite Ho, str_eqb_refl in Hv. apply Hv.
Qed.

Lemma upd_ok es : forall f nd, is_ok (upd es f nd) = is_ok (f (leaf_of nd es)).
Proof.
  intros f nd. rewrite upd_eq. now destruct (f (leaf_of nd es)).
Qed.
Lemma upd_err es : forall f nd e, f (leaf_of nd es) = Err e -> upd es f nd = Err e.
Proof. intros f nd e H. now rewrite upd_eq, H. Qed.

Definition accepts (root : node) (es : list edge) (v mid : str) : Prop :=
  idok mid (cfind root es star_verb) /\
  (if str_eqb v star_verb then forall v', idok mid (cfind root es v') else idok mid (cfind root es v)).

Lemma leaf_of_nodup root es : Uq root -> NoDup (map fst (n_meths (leaf_of root es))).
Proof.
  intros HU. unfold leaf_of. destruct (walk_to es root) as [n|] eqn:Ew; [|constructor]. exact (Uq_meths n (walk_Uq es root n HU Ew)).
Qed.

Lemma add_ok_iff mid b es vfs root : nostar root -> Uq root -> compiled mid b es vfs ->
  (is_ok (add_binding mid root b) = true <-> sel_fine mid b = true /\ accepts root es (b_verb b) mid).
Proof.
  intros Hn HU Hc. rewrite (compiled_add _ _ _ _ _ _ _ _ _ root Hc), upd_ok.
  rewrite (leaf_ok_iff mid b vfs (leaf_of root es) (nostar_leaf root es Hn) (leaf_of_nodup root es HU)).
  unfold accepts. destruct (str_eqb (b_verb b) star_verb); setoid_rewrite cfind_leaf_of; reflexivity.
Qed.

Lemma add_uncompiled mid b root : (forall es vfs, ~ compiled mid b es vfs) -> is_ok (add_binding mid root b) = false.
Proof.
  intros Hno. destruct (add_binding mid root b) as [root'| | |] eqn:E; try reflexivity.
  destruct (add_binding_ok isLetter isNumber resolves body_ok resp_ok _ _ _ _ E) as (es & vfs & _ & Hc & _).
  exfalso. exact (Hno es vfs Hc).
Qed.

Lemma cfind_add mid b es vfs root root' : compiled mid b es vfs -> add_binding mid root b = Ok root' ->
  forall es' v, cfind root' es' v =
    if nkey_eqb (keys es') (keys es) && str_eqb v (b_verb b) then Some mid else cfind root es' v.
Proof.
  intros Hc H es' v.
  destruct (add_binding_ok isLetter isNumber resolves body_ok resp_ok _ _ _ _ H) as (es0 & vfs0 & l & Hc0 & Hl & ->).
  destruct (compiled_fun _ _ _ _ _ _ _ _ _ Hc0 Hc) as [-> ->].
  rewrite <- !cfind_leaf_of, (info_set_at _ _ _ es' (leaf_keeps _ _ _ _ _ _ _ _ Hl)).
  destruct (list_eq_dec _ _ _) as [E|E].
  - rewrite E, nkey_eqb_refl, (leaf_own _ _ _ _ _ Hl v), (leaf_of_keys root es' es E). reflexivity.
  - apply nkey_eqb_neq in E. now rewrite E.
Qed.

(* a binding the node already has leaves the trie as it is ("Method already registered") *)
Lemma set_assoc_same {A : Type} k (c : A) l : assoc k l = Some c -> set_assoc k c l = l.
Proof.
  induction l as [|[k' v'] l IH]; cbn [assoc set_assoc]; [discriminate|].
  destruct (str_eqb k' k); [intros H; injection H as ->; reflexivity|]. intros H. now rewrite IH.
Qed.
Lemma set_var_same pat c l : names_sorted l -> find_var (spell pat) l = Some c -> set_var pat c l = l.
Proof.
  unfold names_sorted. induction l as [|[p n'] r IH]; cbn [find_var set_var map]; [discriminate|].
  intros Hs. inversion Hs as [|a l' Hs' Hall]; subst.
  destruct (str_eqb (spell p) (spell pat)) eqn:E; [intros H; injection H as ->; reflexivity|].
  intros H. destruct (str_ltb (spell pat) (spell p)) eqn:El.
  - exfalso. destruct (find_var_in _ _ _ H) as (p' & Hin & Hsp). rewrite Forall_forall in Hall.
    assert (X : str_ltb (vname (p, n')) (vname (p', c)) = true) by (apply Hall; now apply in_map).
    unfold vname in X. cbn [fst] in X. rewrite Hsp in X.
    pose proof (str_ltb_trans _ _ _ El X) as Y. rewrite str_ltb_irrefl in Y. discriminate.
  - now rewrite (IH Hs' H).
Qed.
Lemma set_at_same (P : list token -> Prop) es : forall nd k n, WFn P k nd -> walk_to es nd = Some n -> set_at es n nd = nd.
Proof.
  induction es as [|e es IH]; intros nd k n Hw H; [now injection H|]. rewrite walk_cons in H. cbn [set_at]. unfold child.
  destruct (child_at e nd) as [c|] eqn:Ec; [|discriminate]. rewrite (IH c _ n (WFn_child_at P k e nd c Hw Ec) H).
  destruct (proj1 (WFn_inv P k nd) Hw) as (_ & _ & W3 & _). destruct nd as [segs vars meths mall], e as [key|pat]; cbn [child_at set_child n_segs n_vars n_meths n_mall] in *.
  - now rewrite (set_assoc_same key c segs Ec).
  - now rewrite (set_var_same pat c vars W3 Ec).
Qed.
Lemma leaf_same mid b vfs nd nd' : leaf mid b vfs nd = Ok nd' -> iown (b_verb b) (info nd) <> None -> nd' = nd.
Proof.
  intros H Hb. apply leaf_inv in H. destruct H as (_ & _ & [y Hs Hy|Hv Hm|Hv Ha]); [reflexivity|..]; elim Hb; unfold iown, info; cbn [fst snd].
  - now rewrite Hv, str_eqb_refl.
  - apply str_eqb_neq in Hv. now rewrite Hv.
Qed.
Theorem add_binding_same mid b es vfs root root' L : Inv L root -> compiled mid b es vfs ->
  add_binding mid root b = Ok root' -> cfind root es (b_verb b) <> None -> root' = root.
Proof.
  intros HI Hc H Hb. destruct (add_binding_ok isLetter isNumber resolves body_ok resp_ok _ _ _ _ H) as (es0 & vfs0 & l & Hc0 & Hl & ->).
  destruct (compiled_fun _ _ _ _ _ _ _ _ _ Hc0 Hc) as [-> ->].
  unfold cfind, info_at in Hb. unfold leaf_of in Hl. destruct (walk_to es root) as [n|] eqn:Ew; [|contradiction].
  assert (Hn : iown (b_verb b) (info n) <> None) by (destruct (iown (b_verb b) (info n)); [discriminate|contradiction]).
  rewrite (leaf_same _ _ _ _ _ Hl Hn). exact (set_at_same PatG es root 0%nat n (inv_wf _ _ _ _ _ HI) Ew).
Qed.

Lemma iown_finfo name v i : NoDup (map fst (fst i)) -> om (iown v (finfo name i)) = sdel name (om (iown v i)).
Proof.
  intros Hnd. unfold iown, finfo, om. cbn [fst snd]. destruct (str_eqb v star_verb).
  - unfold del_mall. destruct (snd i) as [m|]; [|reflexivity]. cbn [option_map odel]. destruct (str_eqb (m_id m) name); reflexivity.
  - destruct (assoc v (fst i)) as [y|] eqn:Ea; cbn [option_map odel].
    + destruct (str_eqb (m_id y) name) eqn:Ey.
      * destruct (assoc v (filter (keep_meth name) (fst i))) as [y'|] eqn:Ef; [|reflexivity].
        apply (assoc_filter_inv v y' _ _ Hnd) in Ef. destruct Ef as [Ef Hk]. rewrite Ea in Ef. injection Ef as <-.
        unfold keep_meth in Hk. cbn [snd] in Hk. rewrite Ey in Hk. discriminate.
      * rewrite (assoc_filter_keep v y _ _ Ea); [reflexivity|]. unfold keep_meth. cbn [snd]. now rewrite Ey.
    + now rewrite (assoc_filter_none v _ _ Ea).
Qed.

Lemma cfind_del name root es v : Uq root -> cfind (dnode name root) es v = sdel name (cfind root es v).
Proof.
  intros HU. unfold cfind, info_at. destruct (walk_to es (dnode name root)) as [n'|] eqn:Ew.
  - destruct (walk_del_inv name es root n' HU Ew) as (n & Hw & ->). rewrite Hw, info_dnode. apply iown_finfo.
    exact (Uq_meths n (walk_Uq es root n HU Hw)).
  - destruct (walk_to es root) as [n|] eqn:Hw; [|reflexivity].
    destruct (iown v (info n)) as [y|] eqn:Eo; [|reflexivity]. unfold om. cbn [option_map odel].
    destruct (str_eqb (m_id y) name) eqn:Ey; [reflexivity|]. exfalso. apply str_eqb_neq in Ey.
    pose proof (walk_del_survives name es root n v y Hw (own_stored _ _ _ Eo) Ey) as X. congruence.
Qed.

Lemma sdel_some name o m : sdel name o = Some m -> o = Some m /\ m <> name.
Proof.
  destruct o as [x|]; cbn [odel]; [|discriminate]. destruct (str_eqb x name) eqn:E; [discriminate|].
  intros H. injection H as <-. split; [reflexivity|now apply str_eqb_neq].
Qed.

(* bindings that meet (the "*" binding and any other binding of the node) belong to one method *)
Definition MI (root : node) : Prop :=
  forall es v x y, cfind root es star_verb = Some x -> cfind root es v = Some y -> x = y.

Record Good (root : node) : Prop := {
  g_inv : exists L, Inv L root;
  g_keys : KeysND root;
  g_meet : MI root
}.

Lemma Good_nostar root : Good root -> nostar root.
Proof. intros [[L HI] _ _]. exact (inv_nostar _ _ _ _ _ HI). Qed.
Lemma Good_Uq root : Good root -> Uq root.
Proof. intros [[L HI] HK _]. exact (WFn_KeysND_Uq _ _ _ (inv_wf _ _ _ _ _ HI) HK). Qed.

Lemma Good_empty : Good empty_node.
Proof.
  constructor.
  - exists []. apply Inv_empty.
  - apply KeysND_empty.
  - intros es v x y H. rewrite cfind_empty in H. discriminate.
Qed.

Theorem Good_add mid root b root' : Good root -> add_binding mid root b = Ok root' -> Good root'.
Proof.
  intros HG H. pose proof (Good_nostar _ HG) as Hn. pose proof (Good_Uq _ HG) as HU. destruct HG as [[L HI] HK HM].
  constructor.
  - exists ((mid, b) :: L). eapply Inv_step; eauto.
  - eapply add_binding_KeysND; eauto.
  - destruct (add_binding_ok isLetter isNumber resolves body_ok resp_ok _ _ _ _ H) as (es & vfs & _ & Hc & _).
    assert (Hacc : accepts root es (b_verb b) mid).
    { apply (add_ok_iff mid b es vfs root Hn HU Hc). now rewrite H. }
    destruct Hacc as [A1 A2].
    intros es' v x y. rewrite !(cfind_add mid b es vfs root root' Hc H).
    destruct (nkey_eqb (keys es') (keys es)) eqn:Ek; cbn [andb]; [|apply HM].
    apply nkey_eqb_eq in Ek. rewrite !(cfind_keys root es' es _ Ek).
    intros Hx Hy.
    assert (Ex : x = mid).
    { destruct (str_eqb star_verb (b_verb b)); [congruence|now apply A1]. }
    subst x. destruct (str_eqb v (b_verb b)) eqn:Ev; [congruence|].
    destruct (str_eqb (b_verb b) star_verb) eqn:Eb.
    + symmetry. now apply (A2 v).
    + rewrite str_eqb_sym, Eb in Hx. eapply HM; eauto.
Qed.

Theorem Good_del name root : Good root -> Good (remove_method name root).
Proof.
  intros HG. pose proof (Good_Uq _ HG) as HU. destruct HG as [[L HI] HK HM].
  change (remove_method name root) with (dnode name root). constructor.
  - exists (filter (keepL name) L). now apply del_rule_Inv.
  - now apply del_rule_KeysND.
  - intros es v x y. rewrite !cfind_del by exact HU. intros Hx Hy.
    apply sdel_some in Hx. apply sdel_some in Hy. destruct Hx as [Hx _]. destruct Hy as [Hy _]. eapply HM; eauto.
Qed.

(* exact: the abstract map holds the same bindings as the trie *)
Record Abs (root : node) (t : ctrie) : Prop := {
  abs_keys : NoDup (map fst t);
  abs_find : forall es v, c_find t (keys es) v = cfind root es v
}.
(* routing: what a key resolves to (own binding, else the "*" binding) is the same *)
Record AbsR (root : node) (t : ctrie) : Prop := {
  absr_keys : NoDup (map fst t);
  absr_lookup : forall es v, c_lookup t (keys es) v = clookup root es v
}.

Lemma Abs_AbsR root t : Abs root t -> AbsR root t.
Proof.
  intros [Hk Hf]. constructor; [exact Hk|]. intros es v. unfold a_lookup, clookup, oelse. now rewrite !Hf.
Qed.

(* the exact relation in the vocabulary of TrieProofs *)
Theorem Abs_stored root t : nostar root ->
  (Abs root t <->
   NoDup (map fst t) /\
   forall es v mid, c_find t (keys es) v = Some mid <->
                    exists i m, info_at root es = Some i /\ stored i v m /\ m_id m = mid).
Proof.
  intros Hn. split.
  - intros [Hk Hf]. split; [exact Hk|]. intros es v mid. rewrite Hf. now apply cfind_stored.
  - intros [Hk Hf]. constructor; [exact Hk|]. intros es v.
    destruct (cfind root es v) as [mid|] eqn:Ec.
    + apply Hf. now apply cfind_stored.
    + destruct (c_find t (keys es) v) as [mid|] eqn:Ea; [|reflexivity].
      apply Hf in Ea. apply (cfind_stored root es v mid Hn) in Ea. congruence.
Qed.

Lemma Abs_empty : Abs empty_node [].
Proof. constructor; [constructor|]. intros es v. now rewrite cfind_empty. Qed.
Lemma AbsR_empty : AbsR empty_node [].
Proof. apply Abs_AbsR, Abs_empty. Qed.

Theorem refine_lookup root t es verb : Good root -> AbsR root t ->
  c_lookup t (keys es) verb =
  match walk_to es root with Some nd => om (bound_at verb nd) | None => None end.
Proof.
  intros HG [_ Hl]. rewrite Hl. destruct (walk_to es root) as [nd|] eqn:Ew.
  - apply clookup_bound; [now apply Good_nostar|exact Ew].
  - now apply clookup_absent.
Qed.
Corollary refine_lookup_at root t es nd verb : Good root -> Abs root t -> walk_to es root = Some nd ->
  c_lookup t (keys es) verb = om (bound_at verb nd).
Proof. intros HG HA Hw. rewrite (refine_lookup root t es verb HG (Abs_AbsR _ _ HA)), Hw. reflexivity. Qed.

Theorem refine_del name root t : Good root -> Abs root t -> Abs (remove_method name root) (c_del t name).
Proof.
  intros HG [Hk Hf]. pose proof (Good_Uq _ HG) as HU. change (remove_method name root) with (dnode name root).
  constructor; [now apply cd_nodup|]. intros es v. rewrite (cf_del t name (keys es) v Hk), cfind_del by exact HU. now rewrite Hf.
Qed.
Theorem refine_del_R name root t : Good root -> AbsR root t -> AbsR (remove_method name root) (c_del t name).
Proof.
  intros HG [Hk Hl]. pose proof (Good_Uq _ HG) as HU. change (remove_method name root) with (dnode name root).
  constructor; [now apply cd_nodup|]. intros es v. rewrite (cl_del t name (keys es) v Hk).
  unfold clookup. rewrite !cfind_del by exact HU. apply oelse_odel.
  - pose proof (Hl es star_verb) as X. rewrite cl_star in X. unfold clookup in X. now rewrite oelse_same in X.
  - exact (Hl es v).
Qed.

(* the abstract key of a binding: the node its template leads to, its verb; invalid when the template
   does not lex or compile (unknown field) or a body / response_body selector is refused *)
Definition abs_key (mid : str) (b : brule) : ckey :=
  match lex_template (b_tmpl b) with
  | Ok ts => match compile (S (length ts)) mid ts with
             | Ok r => AKey (keys (fst r)) (b_verb b) (sel_fine mid b)
             | _ => AKey [] (b_verb b) false
             end
  | _ => AKey [] (b_verb b) false
  end.
Lemma abs_key_compiled mid b es vfs : compiled mid b es vfs -> abs_key mid b = AKey (keys es) (b_verb b) (sel_fine mid b).
Proof. intros (toks & El & Ec). unfold abs_key. now rewrite El, Ec. Qed.
Lemma compiled_dec mid b : (exists es vfs, compiled mid b es vfs) \/ (forall es vfs, ~ compiled mid b es vfs).
Proof.
  unfold TrieProofs.compiled. destruct (lex_template (b_tmpl b)) as [toks| | |] eqn:El.
  2-4: right; intros es vfs (t2 & E1 & _); discriminate.
  destruct (compile (S (length toks)) mid toks) as [[es vfs]| | |] eqn:Ec; [left; exists es, vfs, toks; auto|..];
    right; intros es vfs (t2 & E1 & E2); injection E1 as <-; congruence.
Qed.
Lemma abs_key_uncompiled mid b : (forall es vfs, ~ compiled mid b es vfs) -> ak_valid (abs_key mid b) = false.
Proof.
  intros Hno. unfold abs_key. destruct (lex_template (b_tmpl b)) as [toks| | |] eqn:El; try reflexivity.
  destruct (compile (S (length toks)) mid toks) as [[es vfs]| | |] eqn:Ec; try reflexivity.
  exfalso. apply (Hno es vfs). exists toks. auto.
Qed.
(* a failing template or selector is an invalid key, and conversely *)
Theorem abs_key_valid mid b :
  ak_valid (abs_key mid b) = true <-> (exists es vfs, compiled mid b es vfs) /\ sel_fine mid b = true.
Proof.
  destruct (compiled_dec mid b) as [(es & vfs & Hc)|Hno].
  - rewrite (abs_key_compiled _ _ _ _ Hc). cbn [ak_valid]. split; [intros H; split; [eauto|exact H]|tauto].
  - rewrite (abs_key_uncompiled _ _ Hno). split; [discriminate|]. intros [(es & vfs & Hc) _]. exfalso. exact (Hno es vfs Hc).
Qed.

(* acceptance: the trie accepts exactly when the abstract map does *)
Theorem refine_add_accept mid root t b : Good root -> Abs root t ->
  is_ok (add_binding mid root b) = is_ok (c_add t (abs_key mid b) mid).
Proof.
  intros HG [Hk Hf]. pose proof (Good_nostar _ HG) as Hn. pose proof (Good_Uq _ HG) as HU.
  destruct (compiled_dec mid b) as [(es & vfs & Hc)|Hno].
  2:{ rewrite (add_uncompiled mid b root Hno), ca_ok, (abs_key_uncompiled _ _ Hno). reflexivity. }
  rewrite (abs_key_compiled _ _ _ _ Hc). apply eq_true_iff_eq.
  rewrite (add_ok_iff mid b es vfs root Hn HU Hc). rewrite ca_ok. cbn [ak_node ak_verb ak_valid].
  rewrite !andb_true_iff, negb_true_iff, c_other_false, !Hf, and_assoc. unfold accepts, idok.
  do 2 apply and_iff_compat_l. destruct (str_eqb (b_verb b) star_verb).
  - rewrite c_owned_true. split.
    + intros A2 v m' Hin. apply (A2 v). rewrite <- Hf. now apply cf_in_find.
    + intros A2 v x Hx. rewrite <- Hf in Hx. exact (A2 v x (cf_in _ _ _ _ Hx)).
  - rewrite negb_true_iff, c_other_false. reflexivity.
Qed.

(* the statement: same verdict; when both accept, the same outcome "stored now / already registered" (new
   exactly when the node had no binding under that verb; "already registered" leaves the trie as it
   is), and the results are related again *)
Definition add_agree (root : node) (es : list edge) (v : str) (c : outcome node) (a : outcome (ctrie * bool)) : Prop :=
  match c, a with
  | Ok root', Ok (t', fl) =>
      Abs root' t' /\ Good root' /\ (fl = true <-> cfind root es v = None) /\ (fl = false -> root' = root)
  | Err _, Err e => e = EInvalid
  | _, _ => False
  end.
Theorem refine_add mid root t b es vfs : Good root -> Abs root t -> compiled mid b es vfs ->
  add_agree root es (b_verb b) (add_binding mid root b) (c_add t (abs_key mid b) mid).
Proof.
  intros HG HA Hc. pose proof (refine_add_accept mid root t b HG HA) as Hacc.
  pose proof (add_binding_benign isLetter isNumber resolves body_ok resp_ok mid root b) as Hb.
  pose proof (ca_err t (abs_key mid b) mid) as He.
  destruct (add_binding mid root b) as [root'|e| |] eqn:E; cbn [benign] in Hb; try contradiction;
    destruct (c_add t (abs_key mid b) mid) as [[t' fl]|e'| |] eqn:Ea; try contradiction; cbn [is_ok] in Hacc; try discriminate;
    cbn [add_agree]; [|exact He].
  destruct HA as [Hk Hf]. rewrite (abs_key_compiled _ _ _ _ Hc) in Ea.
  pose proof (ca_nodup _ _ _ _ _ Ea Hk) as Hk'. apply ca_inv in Ea. cbn [ak_node ak_verb ak_valid] in Ea.
  destruct Ea as (_ & _ & _ & Hcase). rewrite Hf in Hcase.
  assert (HA' : Abs root' t').
  { constructor; [exact Hk'|]. intros es' v. rewrite (cfind_add mid b es vfs root root' Hc E).
    destruct Hcase as [(_ & -> & F)|(_ & -> & F)].
    - rewrite Hf. destruct (nkey_eqb (keys es') (keys es)) eqn:Ek; cbn [andb]; [|reflexivity].
      destruct (str_eqb v (b_verb b)) eqn:Ev; [|reflexivity].
      apply nkey_eqb_eq in Ek. apply str_eqb_eq in Ev. subst v. now rewrite (cfind_keys root es' es _ Ek).
    - rewrite cf_cons, Hf. now rewrite (nkey_eqb_sym (keys es) (keys es')), (str_eqb_sym (b_verb b) v). }
  split; [exact HA'|]. split; [eapply Good_add; eauto|].
  assert (Hfl : fl = true <-> cfind root es (b_verb b) = None).
  { destruct Hcase as [(-> & _ & F)|(-> & _ & F)]; rewrite F; split; congruence. }
  split; [exact Hfl|]. intros ->. destruct HG as [[L HI] _ _]. apply (add_binding_same mid b es vfs root root' L HI Hc E).
  intros X. apply Hfl in X. discriminate.
Qed.
Corollary refine_add_rel mid root t b root' t' fl : Good root -> Abs root t ->
  add_binding mid root b = Ok root' -> c_add t (abs_key mid b) mid = Ok (t', fl) -> Good root' /\ Abs root' t'.
Proof.
  intros HG HA E Ea.
  destruct (add_binding_ok isLetter isNumber resolves body_ok resp_ok _ _ _ _ E) as (es & vfs & _ & Hc & _).
  pose proof (refine_add mid root t b es vfs HG HA Hc) as X. rewrite E, Ea in X. cbn [add_agree] in X. tauto.
Qed.

(* simulation of one composite step: same verdict; when both accept, the results are related again *)
Definition sim {X : Type} (p : X -> ctrie) (c : outcome node) (a : outcome X) : Prop :=
  is_ok c = is_ok a /\
  forall root' x, c = Ok root' -> a = Ok x -> Good root' /\ Abs root' (p x).

Lemma sim_seq {X : Type} (p : X -> ctrie) c1 (a1 : outcome X) (C2 : node -> outcome node) (A2 : X -> outcome ctrie) :
  sim p c1 a1 ->
  (forall root1 x, Good root1 -> Abs root1 (p x) -> sim (fun t => t) (C2 root1) (A2 x)) ->
  sim (fun t => t) (bind c1 C2) (bind a1 A2).
Proof.
  intros [H1 H2] Hnext. unfold sim.
  destruct c1 as [root1| | |], a1 as [x| | |]; cbn [bind is_ok] in *; try discriminate;
    try (split; [reflexivity|intros r y Hr Hy; discriminate]).
  destruct (H2 root1 x eq_refl eq_refl) as [HG HA]. exact (Hnext root1 x HG HA).
Qed.
Lemma sim_add mid root t b : Good root -> Abs root t ->
  sim fst (add_binding mid root b) (c_add t (abs_key mid b) mid).
Proof.
  intros HG HA. split; [now apply refine_add_accept|].
  intros root' [t' fl] Hc Ha. eapply refine_add_rel; eauto.
Qed.
Lemma sim_ret root t : Good root -> Abs root t -> sim (fun t => t) (Ok root) (Ok t).
Proof. intros HG HR. split; [reflexivity|]. intros r x Hr Hx. injection Hr as <-. injection Hx as <-. auto. Qed.

(* the abstract descriptors of concrete rules *)
Definition abs_key_add (mid : str) (a : brule) : ckey :=
  if b_nested a then AKey [] (b_verb a) false else abs_key mid a.
Definition abs_rule (mid : str) (r : hrule) : arule nkey str :=
  ARule (abs_key mid (h_main r)) (map (abs_key_add mid) (h_adds r)).
Definition decl_rules (d : mdecl) : list hrule :=
  d_config d ++ match d_annot d with Some r => [r] | None => [] end.
Definition abs_decl (d : mdecl) : adecl nkey str str :=
  ADecl (d_id d) (abs_key (d_id d) (h_main (implicit_rule (d_id d)))) (map (abs_rule (d_id d)) (decl_rules d)).

Lemma sim_additional mid : forall adds root t, Good root -> Abs root t ->
  sim (fun t => t) (add_additional mid root adds) (c_add_all t (map (abs_key_add mid) adds) mid).
Proof.
  induction adds as [|a adds IH]; intros root t HG HA; cbn [Trie.add_additional a_add_all map].
  - now apply sim_ret.
  - unfold abs_key_add at 1. destruct (b_nested a).
    + rewrite a_add_invalid by reflexivity. cbn [bind]. split; [reflexivity|intros r x Hr; discriminate].
    + apply (sim_seq fst); [now apply sim_add|]. intros root1 x HG1 HA1. now apply IH.
Qed.

Theorem refine_add_rule mid r root t : Good root -> Abs root t ->
  sim (fun t => t) (add_rule mid root r) (c_add_rule t (abs_rule mid r) mid).
Proof.
  intros HG HA. unfold Trie.add_rule, a_add_rule, abs_rule. cbn [ar_main ar_add].
  apply (sim_seq fst); [now apply sim_add|]. intros root1 x HG1 HA1. now apply sim_additional.
Qed.

Theorem refine_add_rules mid : forall rs root t, Good root -> Abs root t ->
  sim (fun t => t) (add_rules mid root rs) (c_add_rules t (map (abs_rule mid) rs) mid).
Proof.
  induction rs as [|r rs IH]; intros root t HG HA; cbn [Trie.add_rules a_add_rules map].
  - now apply sim_ret.
  - apply (sim_seq (fun t => t)); [now apply refine_add_rule|]. intros root1 x HG1 HA1. now apply IH.
Qed.

(* appendHandler: implicit rule, service-config rules, annotation *)
Lemma add_rules_app mid : forall l1 l2 root,
  add_rules mid root (l1 ++ l2) = (do r <- add_rules mid root l1; add_rules mid r l2).
Proof.
  induction l1 as [|x l1 IH]; intros l2 root; [reflexivity|].
  cbn [app Trie.add_rules]. rewrite bind_assoc. apply bind_ext. intro r1. apply IH.
Qed.
Lemma add_rule_implicit mid root :
  add_rule mid root (implicit_rule mid) = add_binding mid root (h_main (implicit_rule mid)).
Proof.
  unfold Trie.add_rule. cbn [h_adds implicit_rule Trie.add_additional].
  destruct (add_binding mid root _); reflexivity.
Qed.
Lemma append_handler_eq root d :
  append_handler root d =
  (do root1 <- add_binding (d_id d) root (h_main (implicit_rule (d_id d))); add_rules (d_id d) root1 (decl_rules d)).
Proof.
  unfold Trie.append_handler, decl_rules. rewrite add_rule_implicit.
  destruct (add_binding (d_id d) root (h_main (implicit_rule (d_id d)))) as [root1| | |]; cbn [bind]; try reflexivity.
  rewrite add_rules_app. destruct (add_rules (d_id d) root1 (d_config d)) as [root2| | |]; cbn [bind]; try reflexivity.
  destruct (d_annot d) as [r|]; cbn [Trie.add_rules]; [|reflexivity].
  destruct (add_rule (d_id d) root2 r); reflexivity.
Qed.
Theorem refine_append root t d : Good root -> Abs root t ->
  sim (fun t => t) (append_handler root d) (c_append t (abs_decl d)).
Proof.
  intros HG HA. rewrite append_handler_eq. unfold a_append, abs_decl. cbn [ad_name ad_implicit ad_rules].
  apply (sim_seq fst); [now apply sim_add|]. intros root1 x HG1 HA1. now apply refine_add_rules.
Qed.

(* the method loop of registerService *)
Theorem refine_register : forall ds root t, Good root -> Abs root t ->
  sim (fun t => t) (register_methods root ds) (c_register t (map abs_decl ds)).
Proof.
  induction ds as [|d ds IH]; intros root t HG HA; cbn [Trie.register_methods a_register map].
  - now apply sim_ret.
  - apply (sim_seq (fun t => t)); [now apply refine_append|]. intros root1 x HG1 HA1. now apply IH.
Qed.

(* histories: registerService and removeHandler interleaved (DelProofs.run_ops) *)
Notation run_ops := (DelProofs.run_ops isLetter isNumber resolves body_ok resp_ok).

Fixpoint arun (t : ctrie) (ops : list op) : ctrie :=
  match ops with
  | [] => t
  | OReg ds :: rest => arun (c_register_service t (map abs_decl ds)) rest
  | ODel name :: rest => arun (c_del t name) rest
  end.
(* the verdicts of the registrations, in order *)
Fixpoint ctrace (root : node) (ops : list op) : list bool :=
  match ops with
  | [] => []
  | OReg ds :: rest => snd (register_service root ds) :: ctrace (fst (register_service root ds)) rest
  | ODel name :: rest => ctrace (remove_method name root) rest
  end.
Fixpoint atrace (t : ctrie) (ops : list op) : list bool :=
  match ops with
  | [] => []
  | OReg ds :: rest => is_ok (c_register t (map abs_decl ds)) :: atrace (c_register_service t (map abs_decl ds)) rest
  | ODel name :: rest => atrace (c_del t name) rest
  end.
Lemma run_ops_app o1 : forall o2 root, run_ops root (o1 ++ o2) = run_ops (run_ops root o1) o2.
Proof. induction o1 as [|[ds|name] o1 IH]; intros o2 root; cbn [app DelProofs.run_ops]; auto. Qed.
Lemma arun_app o1 : forall o2 t, arun t (o1 ++ o2) = arun (arun t o1) o2.
Proof. induction o1 as [|[ds|name] o1 IH]; intros o2 t; cbn [app arun]; auto. Qed.

Theorem Good_lifecycle : forall ops root, Good root -> Good (run_ops root ops).
Proof.
  apply (run_ops_pres isLetter isNumber resolves body_ok resp_ok Good).
  - intros mid root b root' E HG. exact (Good_add mid root b root' HG E).
  - intros name root. apply Good_del.
Qed.

(* one registerService: all or nothing on both sides, same verdict *)
Theorem refine_service root t ds : Good root -> Abs root t ->
  Good (fst (register_service root ds)) /\
  Abs (fst (register_service root ds)) (c_register_service t (map abs_decl ds)) /\
  snd (register_service root ds) = is_ok (c_register t (map abs_decl ds)).
Proof.
  intros HG HA. destruct (refine_register ds root t HG HA) as [Hv Hrel].
  unfold Trie.register_service, a_register_service.
  destruct (register_methods root ds) as [root'| | |] eqn:Ec; destruct (c_register t (map abs_decl ds)) as [t'| | |] eqn:Ea;
    cbn [is_ok fst snd] in *; try discriminate; auto.
  destruct (Hrel root' t' eq_refl eq_refl). auto.
Qed.

(* every history: the exact relation, the invariants and the verdicts *)
Theorem refine_history_exact : forall ops root t, Good root -> Abs root t ->
  Good (run_ops root ops) /\ Abs (run_ops root ops) (arun t ops) /\ ctrace root ops = atrace t ops.
Proof.
  induction ops as [|[ds|name] ops IH]; intros root t HG HA; cbn [DelProofs.run_ops arun ctrace atrace] in *.
  - auto.
  - destruct (refine_service root t ds HG HA) as (HG1 & HA1 & Hv).
    destruct (IH _ _ HG1 HA1) as (A & B & C). split; [exact A|]. split; [exact B|]. now rewrite Hv, C.
  - apply IH; [now apply Good_del|now apply refine_del].
Qed.
Theorem refine_history ops root t : Good root -> Abs root t ->
  AbsR (run_ops root ops) (arun t ops) /\ ctrace root ops = atrace t ops.
Proof.
  intros HG HA. destruct (refine_history_exact ops root t HG HA) as (_ & B & C). split; [now apply Abs_AbsR|exact C].
Qed.

(* at every point of every history of the published trie: what the abstract map resolves a key to is
   what search finds bound at that node, and the registrations had the same verdicts so far *)
Corollary refine_published ops es verb :
  c_lookup (arun [] ops) (keys es) verb =
    match walk_to es (run_ops empty_node ops) with Some nd => om (bound_at verb nd) | None => None end /\
  ctrace empty_node ops = atrace [] ops.
Proof.
  destruct (refine_history_exact ops empty_node [] Good_empty Abs_empty) as (HG & HA & Hv).
  split; [apply refine_lookup; [exact HG|now apply Abs_AbsR]|exact Hv].
Qed.
(* ... and which method a key is bound to in the abstract state is exactly what the trie stores *)
Corollary refine_published_exact ops es v mid :
  (c_find (arun [] ops) (keys es) v = Some mid <->
   exists i m, info_at (run_ops empty_node ops) es = Some i /\ stored i v m /\ m_id m = mid).
Proof.
  destruct (refine_history_exact ops empty_node [] Good_empty Abs_empty) as (HG & HA & _).
  apply (Abs_stored _ _ (Good_nostar _ HG)) in HA. destruct HA as [_ HA]. apply HA.
Qed.

(* requests: the method search serves is the one the abstract map binds at the matched node *)
Variable okconv : list str -> str -> bool.
Theorem refine_route root t verb p m caps : Good root -> AbsR root t ->
  Match.route okconv isLetter isNumber root verb p = Ok (m, caps) ->
  exists es toks, lex_path isLetter isNumber (normalise p) = Ok toks /\ MatchEdges es toks caps /\
                  c_lookup t (keys es) verb = Some (m_id m).
Proof.
  intros HG HR H. unfold Match.route in H.
  destruct (lex_path isLetter isNumber (normalise p)) as [toks| | |] eqn:El; try discriminate.
  destruct (search_sound okconv _ _ _ _ _ H) as (es & nd' & HRe & HB & HM). cbn [fst snd] in HB, HM.
  pose proof HG as [[L HI] _ _].
  destruct (Reach_walk PatG _ _ _ HRe 0%nat (inv_wf _ _ _ _ _ HI)) as (Hw & _ & _).
  exists es, toks. split; [reflexivity|]. split; [exact HM|].
  rewrite (refine_lookup root t es verb HG HR), Hw, HB. reflexivity.
Qed.

End Refine.

(* concrete instances: where the statement of refine_add fails of a_add_loose, and an example *)
Module RefineExample.
Import DelExample.
Definition POST := sv [80;79;83;84].
Definition px := sv [47;120].      (* "/x" *)
Definition py := sv [47;121].      (* "/y" *)
Definition bind_of (verb tmpl : str) : brule :=
  {| b_verb := verb; b_tmpl := tmpl; b_body := BNone; b_resp := []; b_nested := false |}.
Notation addb := (Trie.add_binding all_ok all_ok all_ok asciiL asciiN).
Notation akey_of := (abs_key asciiL asciiN all_ok all_ok all_ok).
Notation XGood := (Good asciiL asciiN all_ok).
Definition from_ok (r : outcome node) : node := match r with Ok x => x | _ => empty_node end.

Lemma first_binding mid b root t :
  addb mid empty_node b = Ok root -> c_add [] (akey_of mid b) mid = Ok (t, true) -> XGood root /\ Abs root t.
Proof.
  intros E Ea.
  exact (refine_add_rel asciiL asciiN all_ok all_ok all_ok _ _ _ _ _ _ _ (Good_empty asciiL asciiN all_ok) Abs_empty E Ea).
Qed.

(* 1. A "*" binding at a node where another method holds a verb binding: larking/rules.go and Model/Trie.v
      refuse ("duplicate rule": all bindings that meet belong to one method, in either order -- commit
      0a1e861), and so does Registry.t_add; a_add_loose accepts. *)
Definition root1 : node := from_ok (addb mA empty_node (bind_of GET px)).          (* GET /x -> A *)
Definition t1 : ctrie := [([KLit px], GET, mA)].
Lemma root1_rel : XGood root1 /\ Abs root1 t1.
Proof. apply (first_binding mA (bind_of GET px)); vm_compute; reflexivity. Qed.
Theorem refine_add_refuted :
  XGood root1 /\ Abs root1 t1 /\
  addb mB root1 (bind_of star_verb px) = Err EInvalid /\                                              (* "* /x" for B: refused *)
  c_add_loose t1 (akey_of mB (bind_of star_verb px)) mB = Ok (([KLit px], star_verb, mB) :: t1, true) /\   (* a_add_loose: accepted, new *)
  c_add t1 (akey_of mB (bind_of star_verb px)) mB = Err EInvalid /\                                   (* a_add: refused *)
  (* the same step at nat, node "/x" = 1, verbs "*" = 0 and GET = 1, methods A = 1 and B = 2 *)
  a_add_loose nat nat nat Nat.eqb Nat.eqb Nat.eqb 0%nat [(1, 1, 1)]%nat (AKey 1 0 true)%nat 2%nat
    = Ok ([(1, 0, 2); (1, 1, 1)]%nat, true) /\
  Registry.t_add [(1, 1, 1)]%nat (Registry.BKey 1 0 true) 2%nat = Err EInvalid.
Proof.
  destruct root1_rel as [HG HA]. split; [exact HG|]. split; [exact HA|]. vm_compute. repeat split; reflexivity.
Qed.
Corollary refine_add_verdict_refuted :
  ~ (forall root t mid b, XGood root -> Abs root t -> is_ok (addb mid root b) = is_ok (c_add_loose t (akey_of mid b) mid)).
Proof.
  intros H. destruct refine_add_refuted as (HG & HA & E1 & E2 & _).
  specialize (H root1 t1 mB (bind_of star_verb px) HG HA). rewrite E1, E2 in H. discriminate.
Qed.

(* Registry refuses the registration that its specification [unobstructed] excludes
   (B's "*" key at node 1 meets A's GET key there) *)
Local Open Scope nat_scope.
Definition rA := Registry.MDesc 1 10 [Registry.Rule (Registry.BKey 1 1 true) []].     (* A: implicit node 10; GET at node 1 *)
Definition rB := Registry.MDesc 2 20 [Registry.Rule (Registry.BKey 1 0 true) []].     (* B: implicit node 20; "*" at node 1 *)
Example registry_refuses_obstructed :
  map snd (Registry.trace [Registry.RegLocal 0 [rA]; Registry.RegLocal 1 [rB]]) = [Registry.ROk; Registry.RErr] /\
  Registry.unobstructed (Registry.live_table (Registry.trace [Registry.RegLocal 0 [rA]])) [rB] = false /\
  Registry.route (Registry.run [Registry.RegLocal 0 [rA]; Registry.RegLocal 1 [rB]]) 1 1 = Some 1 /\   (* GET at node 1: A *)
  Registry.route (Registry.run [Registry.RegLocal 0 [rA]; Registry.RegLocal 1 [rB]]) 1 7 = None.       (* any other verb: nothing *)
Proof. vm_compute. repeat split; reflexivity. Qed.
Local Close Scope nat_scope.

(* 2. A verb binding at a node where the same method holds "*": larking stores it (methods[verb] = m), and
      so does Registry.t_add, as new; a_add_loose answers "already registered" and records nothing -- not
      visible through a_lookup (the key resolves to the method already), visible through a_find. *)
Definition root2 : node := from_ok (addb mA empty_node (bind_of star_verb px)).    (* "*" /x -> A *)
Definition t2 : ctrie := [([KLit px], star_verb, mA)].
Definition root3 : node := from_ok (addb mA root2 (bind_of GET px)).               (* then GET /x -> A *)
Lemma root2_rel : XGood root2 /\ Abs root2 t2.
Proof. apply (first_binding mA (bind_of star_verb px)); vm_compute; reflexivity. Qed.
Theorem refine_add_state_refuted :
  XGood root2 /\ Abs root2 t2 /\
  addb mA root2 (bind_of GET px) = Ok root3 /\ root3 <> root2 /\                           (* stored: the trie changes *)
  c_add_loose t2 (akey_of mA (bind_of GET px)) mA = Ok (t2, false) /\                      (* a_add_loose: "already registered" *)
  cfind root3 [ELit px] GET = Some mA /\ c_find t2 [KLit px] GET = None /\                (* the binding is missing *)
  ~ Abs root3 t2 /\ AbsR root3 t2 /\
  c_add t2 (akey_of mA (bind_of GET px)) mA = Ok (([KLit px], GET, mA) :: t2, true) /\     (* a_add: stored, new *)
  Abs root3 (([KLit px], GET, mA) :: t2) /\
  a_add_loose nat nat nat Nat.eqb Nat.eqb Nat.eqb 0%nat [(1, 0, 1)]%nat (AKey 1 1 true)%nat 1%nat = Ok ([(1, 0, 1)]%nat, false) /\
  Registry.t_add [(1, 0, 1)]%nat (Registry.BKey 1 1 true) 1%nat = Ok ([(1, 1, 1); (1, 0, 1)]%nat, true).
Proof.
  destruct root2_rel as [HG HA].
  assert (E : addb mA root2 (bind_of GET px) = Ok root3) by (vm_compute; reflexivity).
  assert (Ea : c_add t2 (akey_of mA (bind_of GET px)) mA = Ok (([KLit px], GET, mA) :: t2, true)) by (vm_compute; reflexivity).
  assert (C1 : cfind root3 [ELit px] GET = Some mA) by (vm_compute; reflexivity).
  assert (C2 : c_find t2 [KLit px] GET = None) by (vm_compute; reflexivity).
  destruct (refine_add_rel asciiL asciiN all_ok all_ok all_ok _ _ _ _ _ _ _ HG HA E Ea) as [HG3 HA3].
  split; [exact HG|]. split; [exact HA|]. split; [exact E|]. split; [vm_compute; discriminate|].
  split; [vm_compute; reflexivity|]. split; [exact C1|]. split; [exact C2|]. split; [|split; [|split; [exact Ea|split; [exact HA3|]]]].
  - intros [_ Hf]. specialize (Hf [ELit px] GET). change (keys [ELit px]) with [KLit px] in Hf. congruence.
  - pose proof (Abs_AbsR _ _ HA3) as [_ Hl]. constructor; [repeat constructor; intros []|].
    intros es v. rewrite <- Hl. unfold a_lookup. rewrite !cf_cons.
    destruct (nkey_eqb [KLit px] (keys es)) eqn:Ek; cbn [andb]; [|reflexivity].
    change (str_eqb GET star_verb) with false. destruct (str_eqb GET v) eqn:Ev; [|reflexivity].
    apply nkey_eqb_eq in Ek. apply str_eqb_eq in Ev. subst v. rewrite <- Ek, C2. reflexivity.
  - vm_compute. split; reflexivity.
Qed.

(* 3. two methods, a shared node, one removal *)
(* A: GET /x with the additional binding GET /y;  B: POST /x;  both with their implicit "*" rule *)
Definition eA := {| d_id := mA; d_config := [{| h_main := bind_of GET px; h_adds := [bind_of GET py] |}]; d_annot := None |}.
Definition eB := {| d_id := mB; d_config := []; d_annot := Some (mk POST px) |}.
Definition history := [OReg [eA; eB]; ODel mB].
Notation crun := (run_ops asciiL asciiN all_ok all_ok all_ok).
Notation xrun := (arun asciiL asciiN all_ok all_ok all_ok).
Definition kS (x : N) : nkey := [KLit (sv [47;83]); KLit (sv [47;x])].      (* the node of "/S/A", "/S/B" *)
Definition tAB : ctrie :=
  [([KLit px], POST, mB); (kS 66, star_verb, mB); ([KLit py], GET, mA); ([KLit px], GET, mA); (kS 65, star_verb, mA)].
Definition tA : ctrie := [([KLit py], GET, mA); ([KLit px], GET, mA); (kS 65, star_verb, mA)].
Definition iX (mid : str) (body : bsel) := {| m_id := mid; m_vars := []; m_body := body; m_resp := [] |}.

Example abstract_counterpart :
  (* the abstract runs *)
  xrun [] [OReg [eA; eB]] = tAB /\ xrun [] history = tA /\
  (* the shared node "/x" of the trie, before and after the removal of B *)
  info_at (crun empty_node [OReg [eA; eB]]) [ELit px] = Some ([(GET, iX mA BNone); (POST, iX mB BNone)], None) /\
  info_at (crun empty_node history) [ELit px] = Some ([(GET, iX mA BNone)], None) /\
  (* keys resolve alike, before ... *)
  c_lookup tAB [KLit px] GET = Some mA /\ clookup (crun empty_node [OReg [eA; eB]]) [ELit px] GET = Some mA /\
  c_lookup tAB [KLit px] POST = Some mB /\ clookup (crun empty_node [OReg [eA; eB]]) [ELit px] POST = Some mB /\
  c_lookup tAB (kS 66) GET = Some mB /\ clookup (crun empty_node [OReg [eA; eB]]) [ELit (sv [47;83]); ELit (sv [47;66])] GET = Some mB /\
  (* ... and after *)
  c_lookup tA [KLit px] POST = None /\ clookup (crun empty_node history) [ELit px] POST = None /\
  c_lookup tA (kS 66) GET = None /\ clookup (crun empty_node history) [ELit (sv [47;83]); ELit (sv [47;66])] GET = None /\
  c_lookup tA [KLit py] GET = Some mA /\ clookup (crun empty_node history) [ELit py] GET = Some mA /\
  (* the same registrations were accepted *)
  ctrace asciiL asciiN all_ok all_ok all_ok empty_node history = [true] /\
  atrace asciiL asciiN all_ok all_ok all_ok [] history = [true].
Proof. vm_compute. repeat split; reflexivity. Qed.

(* the theorems apply to it: the relation holds at both points *)
Example history_related :
  Abs (crun empty_node [OReg [eA; eB]]) tAB /\ Abs (crun empty_node history) tA.
Proof.
  destruct abstract_counterpart as (E1 & E2 & _). rewrite <- E1, <- E2.
  split; apply refine_history_exact; solve [apply Good_empty|apply Abs_empty].
Qed.

End RefineExample.

Print Assumptions Abs_stored.
Print Assumptions refine_lookup.
Print Assumptions refine_route.
Print Assumptions refine_del.
Print Assumptions refine_del_R.
Print Assumptions abs_key_valid.
Print Assumptions add_binding_same.
Print Assumptions refine_add_accept.
Print Assumptions refine_add.
Print Assumptions refine_add_rel.
Print Assumptions refine_add_rule.
Print Assumptions refine_add_rules.
Print Assumptions refine_append.
Print Assumptions refine_register.
Print Assumptions refine_service.
Print Assumptions Good_add.
Print Assumptions Good_del.
Print Assumptions Good_lifecycle.
Print Assumptions refine_history_exact.
Print Assumptions refine_history.
Print Assumptions refine_published.
Print Assumptions refine_published_exact.
Print Assumptions RefineExample.refine_add_refuted.
Print Assumptions RefineExample.refine_add_verdict_refuted.
Print Assumptions RefineExample.registry_refuses_obstructed.
Print Assumptions RefineExample.refine_add_state_refuted.
Print Assumptions RefineExample.abstract_counterpart.
Print Assumptions RefineExample.history_related.
Print Assumptions RegistryInstance.t_add_instance.
Print Assumptions RegistryInstance.step_reglocal_instance.
