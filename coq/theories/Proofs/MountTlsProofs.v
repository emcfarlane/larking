(* TLSCredsOption is transparent: wherever it stands among the options, the server answers every path as the server
   built without it -- except that the options behind it are counted one later (an extra handler's identity in the
   model is the position of its option). *)
From Coq Require Import List Arith Lia.
From Larking Require Import Model.Mount.
Import ListNotations.

Definition bump (k j : nat) : nat := if j <? k then j else S j.
Definition rl_tgt (k : nat) (t : target) : target :=
  match t with TExtra j => TExtra (bump k j) | TMux s => TMux s end.
Definition rl_entry (k : nat) (e : entry) : entry := mk_entry (e_pat e) (rl_tgt k (e_tgt e)).
Definition rl_tbl (k : nat) (t : list entry) : list entry := map (rl_entry k) t.
Definition rl_opts (k : nat) (r : opts_result) : opts_result :=
  match r with OOk t p => OOk (rl_tbl k t) p | x => x end.
Definition rl_reg (k : nat) (r : reg_result) : reg_result :=
  match r with ROk t => ROk (rl_tbl k t) | x => x end.
Definition rl_resp (k : nat) (r : response) : response :=
  match r with ToExtra i p => ToExtra (bump k i) p | x => x end.
Definition rl_obs (k : nat) (o : observation) : observation :=
  match o with ObsResp r => ObsResp (rl_resp k r) | x => x end.

Lemma has_pat_rl k t p : has_pat (rl_tbl k t) p = has_pat t p.
Proof. unfold has_pat, rl_tbl. induction t as [|e t IH]; cbn [map existsb]; [reflexivity|]. now rewrite IH. Qed.

Lemma register_rl k t pat nilh tg :
  register (rl_tbl k t) pat nilh (rl_tgt k tg) = rl_reg k (register t pat nilh tg).
Proof.
  unfold register. destruct pat as [|c pat']; [reflexivity|].
  destruct nilh; [reflexivity|]. destruct (negb (plain (c :: pat'))); [reflexivity|].
  rewrite has_pat_rl. destruct (has_pat t (c :: pat')); [reflexivity|].
  cbn [rl_reg]. unfold rl_tbl. now rewrite map_app.
Qed.

(* the options behind position k, counted one later *)
Lemma apply_opts_shift post : forall i t pats k, k <= i ->
  apply_opts post (S i) (rl_tbl k t) pats = rl_opts k (apply_opts post i t pats).
Proof.
  induction post as [|o post IH]; intros i t pats k Hk; cbn [apply_opts]; [reflexivity|].
  destruct o as [|ps|pat nilh].
  - apply IH; lia.
  - destruct pats; [reflexivity | apply IH; lia].
  - replace (TExtra (S i)) with (rl_tgt k (TExtra i)) by (cbn [rl_tgt]; unfold bump; replace (i <? k) with false by (symmetry; apply Nat.ltb_ge; lia); reflexivity).
    rewrite register_rl. destruct (register t pat nilh (TExtra i)) as [t'| |]; cbn [rl_reg]; [apply IH; lia | reflexivity | reflexivity].
Qed.

(* all extra handlers of a table come from options before position k *)
Definition small (k : nat) (t : list entry) : Prop :=
  Forall (fun e => match e_tgt e with TExtra j => j < k | TMux _ => True end) t.

Lemma rl_small k t : small k t -> rl_tbl k t = t.
Proof.
  unfold small, rl_tbl. induction 1 as [|e t He _ IH]; cbn [map]; [reflexivity|]. rewrite IH. f_equal.
  destruct e as [p [s|j]]; cbn [e_tgt] in He; [reflexivity|]. unfold rl_entry, rl_tgt, bump; cbn [e_pat e_tgt].
  replace (j <? k) with true by (symmetry; apply Nat.ltb_lt; exact He). reflexivity.
Qed.

Lemma small_mono k k' t : k <= k' -> small k t -> small k' t.
Proof. intros H. unfold small. apply Forall_impl. intros [p [s|j]]; cbn; [auto | lia]. Qed.

Lemma register_small k t pat nilh i t' : small k t -> i < k -> register t pat nilh (TExtra i) = ROk t' -> small k t'.
Proof.
  unfold register. destruct pat as [|c pat']; [discriminate|]. destruct nilh; [discriminate|].
  destruct (negb (plain (c :: pat'))); [discriminate|]. destruct (has_pat t (c :: pat')); [discriminate|].
  intros S Hi E. injection E as <-. unfold small. apply Forall_app. split; [exact S | constructor; [cbn; exact Hi | constructor]].
Qed.

Lemma apply_opts_tls pre : forall post i t pats, small i t ->
  apply_opts (pre ++ OTLS :: post) i t pats = rl_opts (i + length pre) (apply_opts (pre ++ post) i t pats).
Proof.
  induction pre as [|o pre IH]; intros post i t pats S; cbn [app length apply_opts].
  - rewrite Nat.add_0_r. rewrite <- (rl_small i t S) at 1. apply apply_opts_shift. lia.
  - replace (i + Datatypes.S (length pre)) with (Datatypes.S i + length pre) by lia.
    destruct o as [|ps|pat nilh].
    + apply IH. eapply small_mono; [|exact S]. lia.
    + destruct pats; [reflexivity|]. apply IH. eapply small_mono; [|exact S]. lia.
    + destruct (register t pat nilh (TExtra i)) as [t'| |] eqn:R; [|reflexivity|reflexivity].
      apply IH. eapply register_small; [eapply small_mono; [|exact S]; lia | | exact R]. lia.
Qed.

Lemma reg_mounts_rl k ps : forall t, reg_mounts ps (rl_tbl k t) = rl_reg k (reg_mounts ps t).
Proof.
  induction ps as [|p ps IH]; intros t; cbn [reg_mounts]; [reflexivity|].
  change (e_tgt (mount_entry p)) with (rl_tgt k (e_tgt (mount_entry p))) at 1.
  rewrite register_rl. destruct (register t (e_pat (mount_entry p)) false (e_tgt (mount_entry p))); cbn [rl_reg]; [apply IH | reflexivity | reflexivity].
Qed.

Definition rl_server (k : nat) (s : server) : server := mk_server (rl_tbl k (s_tbl s)) (s_mounts s).
Definition rl_ns (k : nat) (r : ns_result) : ns_result := match r with NSOk s => NSOk (rl_server k s) | x => x end.

Lemma new_server_tls nm pre post :
  new_server nm (pre ++ OTLS :: post) = rl_ns (length pre) (new_server nm (pre ++ post)).
Proof.
  unfold new_server. destruct nm; [reflexivity|].
  rewrite (apply_opts_tls pre post 0 [] None) by constructor. cbn [Nat.add].
  destruct (apply_opts (pre ++ post) 0 [] None) as [t pats| | |]; cbn [rl_opts rl_ns]; try reflexivity.
  rewrite reg_mounts_rl. destruct (reg_mounts (effective_mounts pats) t); reflexivity.
Qed.

Lemma best_rl k path : forall t acc,
  best (rl_tbl k t) path (option_map (rl_entry k) acc) = option_map (rl_entry k) (best t path acc).
Proof.
  induction t as [|e t IH]; intros acc; cbn [rl_tbl map best]; [reflexivity|].
  change (e_pat (rl_entry k e)) with (e_pat e).
  destruct (claims (e_pat e) path); [|apply IH].
  destruct acc as [a|]; cbn [option_map].
  - change (e_pat (rl_entry k a)) with (e_pat a).
    destruct (length (e_pat a) <? length (e_pat e)); [apply (IH (Some e)) | apply (IH (Some a))].
  - apply (IH (Some e)).
Qed.

Lemma run_entry_rl k e path : run_entry (rl_entry k e) path = rl_resp k (run_entry e path).
Proof.
  unfold run_entry. destruct e as [p [s|j]]; cbn; [|reflexivity].
  unfold strip_serve. destruct s; [reflexivity|]. destruct (drop_prefix _ _); [|reflexivity].
  match goal with |- context [if ?c then _ else _] => destruct c end; reflexivity.
Qed.

Lemma serve_rl k s path : serve (rl_server k s) path = rl_resp k (serve s path).
Proof.
  unfold serve. destruct (negb (is_clean path)); [reflexivity|]. cbn [s_tbl rl_server].
  rewrite has_pat_rl. pose proof (best_rl k path (s_tbl s) None) as B. cbn [option_map] in B. rewrite B. clear B.
  destruct (best (s_tbl s) path None) as [e|]; cbn [option_map].
  - change (e_pat (rl_entry k e)) with (e_pat e). destruct (str_eqb (e_pat e) path); [apply run_entry_rl|].
    match goal with |- context [if ?c then _ else _] => destruct c end; [reflexivity | apply run_entry_rl].
  - match goal with |- context [if ?c then _ else _] => destruct c end; reflexivity.
Qed.

Lemma run_case_tls nm pre post path :
  run_case nm (pre ++ OTLS :: post) path = rl_obs (length pre) (run_case nm (pre ++ post) path).
Proof.
  unfold run_case. rewrite new_server_tls.
  destruct (new_server nm (pre ++ post)) as [s| | |]; cbn [rl_ns rl_obs]; try reflexivity.
  now rewrite serve_rl.
Qed.
