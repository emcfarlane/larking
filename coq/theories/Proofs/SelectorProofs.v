(* setRules / getRules (Model/Selector.v) against `covers` (Spec/SelectorSpec.v), on the components
   `split` cuts a name into. Vocabulary the C19 statements use: `rest_nil cs`: the string that remains
   is empty (no component left, or one empty one); `norm s`: what setRules makes of a selector, the
   exact path `NExact p`, everything below a path `NWild p`, or `NPanic`; `ncov n cs` / `ncov_b n pre cs`:
   the normalised selector n is returned for the name with components cs (the boolean one with `pre`
   already walked); `spec_walk rs pre cs`: the rules getRules returns, in its order, read off the
   rule list: the wildcards at each prefix from the root down, then the exact ones. *)
From Larking Require Import Base.GoSem Spec.SelectorSpec Model.Selector.
From Coq Require Import Permutation.

Local Open Scope nat_scope.

Lemma split_nonnil s : split s <> [].
Proof.
  destruct s as [|c s]; cbn; [discriminate|].
  destruct (N.eqb c dot); [discriminate|]. destruct (split s); discriminate.
Qed.

Lemma split_cut s :
  split s = let '(a, b, f) := cut s in if f then a :: split b else [a].
Proof.
  induction s as [|c s IH]; cbn; [reflexivity|].
  destruct (N.eqb c dot); [reflexivity|].
  rewrite IH. destruct (cut s) as [[a b] f]. destruct f; reflexivity.
Qed.

Lemma cut_length s : let '(a, b, f) := cut s in
  length b <= pred (length s) /\ (f = false -> a = s /\ b = []).
Proof.
  induction s as [|c s IH]; cbn; [auto|].
  destruct (N.eqb c dot); [split; [lia|discriminate]|].
  destruct (cut s) as [[a b] f]. destruct IH as [IH1 IH2]. split; [cbn; lia|].
  intros ->. destruct (IH2 eq_refl) as [-> ->]. auto.
Qed.

(* "the remainder string is empty", on the components that remain *)
Definition rest_nil (cs : list str) : bool :=
  match cs with [] => true | [c] => is_nil c | _ => false end.

Lemma rest_nil_split x : rest_nil (split x) = is_nil x.
Proof.
  destruct x as [|c x]; cbn; [reflexivity|].
  destruct (N.eqb c dot).
  - pose proof (split_nonnil x). destruct (split x); [congruence|reflexivity].
  - pose proof (split_nonnil x). destruct (split x) as [|h [|h2 t]]; [congruence|reflexivity|reflexivity].
Qed.

Lemma strs_eqb_eq (a b : list str) : list_eqb bytes_eqb a b = true <-> a = b.
Proof. apply list_eqb_eq. apply bytes_eqb_eq. Qed.

Lemma find_upd_same {A} k (v : A) l : find_kid k (upd_kid k v l) = Some v.
Proof.
  induction l as [|[k' v'] l IH]; cbn.
  - now rewrite bytes_eqb_refl.
  - destruct (bytes_eqb k k') eqn:E; cbn; [now rewrite bytes_eqb_refl|now rewrite E].
Qed.
Lemma find_upd_other {A} k k' (v : A) l : k' <> k -> find_kid k' (upd_kid k v l) = find_kid k' l.
Proof.
  intros N. induction l as [|[k2 v2] l IH]; cbn.
  - apply bytes_eqb_neq in N. now rewrite N.
  - destruct (bytes_eqb k k2) eqn:E; cbn.
    + apply bytes_eqb_eq in E. subst k2. apply bytes_eqb_neq in N. now rewrite N.
    + destruct (bytes_eqb k' k2); auto.
Qed.

(* what a selector string means to setRules *)
Inductive nsel := NExact (p : list str) | NWild (p : list str) | NPanic.
Definition npre (c : str) (n : nsel) : nsel :=
  match n with NExact p => NExact (c :: p) | NWild p => NWild (c :: p) | NPanic => NPanic end.
Fixpoint norm_cs (cs : list str) : nsel :=
  match cs with
  | [] => NExact []
  | c :: cs' =>
    if bytes_eqb c star_c then (if rest_nil cs' then NWild [] else NPanic)
    else if is_nil c then NExact []
    else npre c (norm_cs cs')
  end.
Definition norm (s : str) : nsel := norm_cs (split s).
Definition nsel_eqb (a b : nsel) : bool :=
  match a, b with
  | NExact p, NExact q | NWild p, NWild q => list_eqb bytes_eqb p q
  | NPanic, NPanic => true
  | _, _ => false
  end.
Lemma nsel_eqb_eq a b : nsel_eqb a b = true <-> a = b.
Proof.
  destruct a, b; cbn; try (split; [discriminate|congruence]); try tauto.
  - rewrite strs_eqb_eq. split; congruence.
  - rewrite strs_eqb_eq. split; congruence.
Qed.

Section Trie.
Variable R : Type.
Variable sel : R -> str.
Notation trie := (trie R).

Fixpoint insert (p : list str) (w : bool) (r : R) (t : trie) : trie :=
  match p with
  | [] => if w then Node (wild t ++ [r]) (exact t) (kids t) else Node (wild t) (exact t ++ [r]) (kids t)
  | c :: p' =>
    let sub := match find_kid c (kids t) with Some s => s | None => empty end in
    Node (wild t) (exact t) (upd_kid c (insert p' w r sub) (kids t))
  end.
Definition ins (n : nsel) (r : R) (t : trie) : outcome trie :=
  match n with
  | NExact p => Ok (insert p false r t)
  | NWild p => Ok (insert p true r t)
  | NPanic => Panic PExplicit
  end.

Lemma ins_npre c n r t :
  ins (npre c n) r t =
  (do s' <- ins n r (match find_kid c (kids t) with Some s => s | None => empty end) ;
   Ok (Node (wild t) (exact t) (upd_kid c s' (kids t)))).
Proof. destruct n; reflexivity. Qed.

(* norm on the two halves strings.Cut returns: the switch of setRules *)
Lemma norm_cut s : let '(tag, name, _) := cut s in
  norm s = if bytes_eqb tag star_c then (if is_nil name then NWild [] else NPanic)
           else if is_nil tag then NExact [] else npre tag (norm name).
Proof.
  unfold norm. rewrite split_cut. pose proof (cut_length s) as HC.
  destruct (cut s) as [[tag name] f]. destruct f.
  - cbn [norm_cs]. rewrite rest_nil_split. reflexivity.
  - destruct HC as [_ HC]. destruct (HC eq_refl) as [-> ->]. reflexivity.
Qed.

Lemma set_one_norm : forall fuel s r t, length s < fuel -> set_one fuel r s t = ins (norm s) r t.
Proof using. clear sel.
  induction fuel as [|fuel IH]; intros s r t Hlen; [lia|].
  cbn [set_one]. pose proof (norm_cut s) as NC. pose proof (cut_length s) as HC.
  destruct (cut s) as [[tag name] f] eqn:EC. rewrite NC. destruct HC as [HC _].
  destruct (bytes_eqb tag star_c); [destruct (is_nil name); reflexivity|].
  destruct (is_nil tag) eqn:Et; [reflexivity|].
  rewrite ins_npre, IH; [reflexivity|].
  destruct s; [inversion EC; subst; discriminate|cbn [length] in *; lia].
Qed.

Fixpoint build (rs : list R) (t : trie) : outcome trie :=
  match rs with
  | [] => Ok t
  | r :: rs' => do t' <- ins (norm (sel r)) r t ; build rs' t'
  end.

Lemma set_rules_build rs : set_rules sel rs = build rs empty.
Proof.
  unfold set_rules.
  assert (G : forall rs acc,
    fold_left (fun acc r => do t <- acc ; set_one (S (length (sel r))) r (sel r) t) rs acc
    = (do t <- acc ; build rs t)).
  { clear rs. induction rs as [|r rs IH]; intros acc; cbn [fold_left build].
    - destruct acc; reflexivity.
    - rewrite IH. destruct acc as [t| | |]; cbn [bind]; try reflexivity.
      rewrite set_one_norm by lia. reflexivity. }
  rewrite G. reflexivity.
Qed.

(* addressing nodes by the list of components leading to them *)
Fixpoint node_at (t : trie) (p : list str) : option trie :=
  match p with
  | [] => Some t
  | c :: p' => match find_kid c (kids t) with Some s => node_at s p' | None => None end
  end.
Definition wild_at (t : trie) (p : list str) : list R :=
  match node_at t p with Some n => wild n | None => [] end.
Definition exact_at (t : trie) (p : list str) : list R :=
  match node_at t p with Some n => exact n | None => [] end.

Lemma node_at_empty p : node_at empty p = match p with [] => Some empty | _ => None end.
Proof. destruct p; reflexivity. Qed.

Lemma node_at_app t p c :
  node_at t (p ++ [c]) = match node_at t p with Some n => find_kid c (kids n) | None => None end.
Proof.
  revert t. induction p as [|d p IH]; intros t; cbn.
  - destruct (find_kid c (kids t)); reflexivity.
  - destruct (find_kid d (kids t)); auto.
Qed.

Lemma at_insert : forall p w r t q,
  wild_at (insert p w r t) q = wild_at t q ++ (if w && list_eqb bytes_eqb p q then [r] else []) /\
  exact_at (insert p w r t) q = exact_at t q ++ (if negb w && list_eqb bytes_eqb p q then [r] else []).
Proof.
  unfold wild_at, exact_at.
  induction p as [|c p IH]; intros w r t q.
  - destruct t as [wl ex ks]. destruct q as [|d q]; destruct w; cbn; rewrite ?app_nil_r; auto.
  - destruct t as [wl ex ks]. destruct q as [|d q].
    + cbn. rewrite !andb_false_r, !app_nil_r. auto.
    + cbn [insert node_at kids wild exact list_eqb].
      destruct (bytes_eqb c d) eqn:E.
      * apply bytes_eqb_eq in E. subst d. rewrite find_upd_same. cbn [andb].
        destruct (IH w r (match find_kid c ks with Some s => s | None => empty end) q) as [I1 I2].
        rewrite I1, I2. destruct (find_kid c ks); [auto|].
        rewrite node_at_empty. destruct q; auto.
      * rewrite find_upd_other by (intros ->; rewrite bytes_eqb_refl in E; discriminate).
        cbn [andb]. rewrite !andb_false_r, !app_nil_r. auto.
Qed.

Lemma at_ins n r t t' : ins n r t = Ok t' -> forall q,
  wild_at t' q = wild_at t q ++ (if nsel_eqb n (NWild q) then [r] else []) /\
  exact_at t' q = exact_at t q ++ (if nsel_eqb n (NExact q) then [r] else []).
Proof.
  destruct n as [p|p|]; [| |discriminate]; intros [= <-] q;
    [destruct (at_insert p false r t q) as [A1 A2]|destruct (at_insert p true r t q) as [A1 A2]];
    rewrite A1, A2; cbn [nsel_eqb negb andb]; now rewrite app_nil_r.
Qed.

Lemma build_at : forall rs t t', build rs t = Ok t' -> forall q,
  wild_at t' q = wild_at t q ++ filter (fun r => nsel_eqb (norm (sel r)) (NWild q)) rs /\
  exact_at t' q = exact_at t q ++ filter (fun r => nsel_eqb (norm (sel r)) (NExact q)) rs.
Proof.
  induction rs as [|r rs IH]; intros t t' H q; cbn [build] in H.
  - inversion H; subst. cbn. rewrite !app_nil_r. auto.
  - destruct (ins (norm (sel r)) r t) as [t1| | |] eqn:Ei; try discriminate. cbn [bind] in H.
    destruct (IH _ _ H q) as [I1 I2], (at_ins _ _ _ _ Ei q) as [A1 A2].
    rewrite I1, I2, A1, A2, <- !app_assoc. cbn [filter].
    split; [destruct (nsel_eqb (norm (sel r)) (NWild q))|destruct (nsel_eqb (norm (sel r)) (NExact q))]; reflexivity.
Qed.

Lemma ins_cases n r t :
  n = NPanic /\ ins n r t = Panic PExplicit \/ n <> NPanic /\ exists t', ins n r t = Ok t'.
Proof. destruct n; [right; split; [discriminate|eexists; reflexivity] ..|left; split; reflexivity]. Qed.

(* setRules panics exactly when some selector normalises to NPanic *)
Lemma build_cases : forall rs t,
  (exists r, In r rs /\ norm (sel r) = NPanic) /\ build rs t = Panic PExplicit \/
  (forall r, In r rs -> norm (sel r) <> NPanic) /\ exists t', build rs t = Ok t'.
Proof.
  induction rs as [|r rs IH]; intros t; cbn [build]; [right; split; [intros r []|eauto]|].
  destruct (ins_cases (norm (sel r)) r t) as [[En ->]|[En [t1 ->]]]; cbn [bind].
  - left. split; [exists r; split; [now left|assumption]|reflexivity].
  - destruct (IH t1) as [[(x & Hi & Hx) B]|[N B]].
    + left. split; [exists x; split; [now right|assumption]|exact B].
    + right. split; [intros y [<-|Hy]; [assumption|auto]|exact B].
Qed.

(* getRules on the components of the name *)
Fixpoint get_cs (t : trie) (cs : list str) : list R :=
  match cs with
  | [] => exact t
  | c :: cs' =>
    if rest_nil cs then exact t
    else wild t ++ match find_kid c (kids t) with Some s => get_cs s cs' | None => [] end
  end.

Lemma get_cs_cut t name : name <> [] ->
  let '(tag, rest, _) := cut name in
  get_cs t (split name) = wild t ++ match find_kid tag (kids t) with Some s => get_cs s (split rest) | None => [] end.
Proof.
  intros NN. rewrite split_cut. pose proof (cut_length name) as HC.
  destruct (cut name) as [[tag rest] f]. destruct HC as [_ HC], f.
  - pose proof (split_nonnil rest). cbn [get_cs rest_nil]. destruct (split rest); [congruence|reflexivity].
  - destruct (HC eq_refl) as [-> ->]. cbn [get_cs rest_nil]. destruct name; [congruence|reflexivity].
Qed.

Lemma get_split : forall fuel name t, length name < fuel -> get fuel t name = Ok (get_cs t (split name)).
Proof.
  induction fuel as [|fuel IH]; intros name t Hlen; [lia|].
  cbn [get]. destruct name as [|x name]; [reflexivity|]. cbn [is_nil].
  pose proof (get_cs_cut t (x :: name) ltac:(discriminate)) as GC. pose proof (cut_length (x :: name)) as HC.
  destruct (cut (x :: name)) as [[tag rest] f]. rewrite GC. destruct HC as [HC _].
  destruct (find_kid tag (kids t)) as [s|]; [|now rewrite app_nil_r].
  rewrite IH by (cbn [length] in *; lia). reflexivity.
Qed.

(* the walk of getRules for a name without empty components, in terms of addresses *)
Fixpoint walk (t0 : trie) (pre cs : list str) : list R :=
  match cs with
  | [] => exact_at t0 pre
  | c :: cs' => wild_at t0 pre ++ walk t0 (pre ++ [c]) cs'
  end.

Lemma walk_none t0 : forall cs pre, node_at t0 pre = None -> walk t0 pre cs = [].
Proof.
  induction cs as [|c cs IH]; intros pre H; cbn [walk]; unfold exact_at, wild_at; rewrite H; [reflexivity|].
  cbn. apply IH. rewrite node_at_app, H. reflexivity.
Qed.

Lemma get_cs_walk t0 : forall cs pre n,
  forallb nonempty cs = true -> node_at t0 pre = Some n -> get_cs n cs = walk t0 pre cs.
Proof.
  induction cs as [|c cs IH]; intros pre n Hne Hn.
  - cbn. unfold exact_at. now rewrite Hn.
  - cbn [forallb] in Hne. apply andb_true_iff in Hne. destruct Hne as [Hc Hne].
    cbn [get_cs walk].
    assert (RN : rest_nil (c :: cs) = false).
    { unfold nonempty in Hc. destruct cs; cbn; [now destruct (is_nil c)|reflexivity]. }
    rewrite RN. unfold wild_at at 1. rewrite Hn. f_equal.
    destruct (find_kid c (kids n)) as [s|] eqn:Ef.
    + apply IH; [assumption|]. rewrite node_at_app, Hn. assumption.
    + symmetry. apply walk_none. rewrite node_at_app, Hn. assumption.
Qed.

(* the same walk over the rule list instead of the trie *)
Fixpoint spec_walk (rs : list R) (pre cs : list str) : list R :=
  match cs with
  | [] => filter (fun r => nsel_eqb (norm (sel r)) (NExact pre)) rs
  | c :: cs' => filter (fun r => nsel_eqb (norm (sel r)) (NWild pre)) rs ++ spec_walk rs (pre ++ [c]) cs'
  end.

Lemma walk_spec rs t0 : build rs empty = Ok t0 -> forall cs pre, walk t0 pre cs = spec_walk rs pre cs.
Proof.
  intros B. induction cs as [|c cs IH]; intros pre; cbn [walk spec_walk];
    destruct (build_at _ _ _ B pre) as [W E]; unfold wild_at, exact_at in *;
    rewrite node_at_empty in *.
  - rewrite E. destruct pre; reflexivity.
  - rewrite W, IH. destruct pre; reflexivity.
Qed.
End Trie.

(* which normalised selectors the walk collects *)
Fixpoint ncov_b (n : nsel) (pre cs : list str) : bool :=
  match cs with
  | [] => nsel_eqb n (NExact pre)
  | c :: cs' => nsel_eqb n (NWild pre) || ncov_b n (pre ++ [c]) cs'
  end.

(* the meaning of a normalised selector: exact path, or wildcard below a strict prefix *)
Definition ncov (n : nsel) (cs : list str) : Prop :=
  n = NExact cs \/ exists a b, cs = a ++ b /\ b <> [] /\ n = NWild a.

Lemma ncov_b_spec n : forall cs pre,
  ncov_b n pre cs = true <->
  (n = NExact (pre ++ cs) \/ exists a b, cs = a ++ b /\ b <> [] /\ n = NWild (pre ++ a)).
Proof.
  induction cs as [|c cs IH]; intros pre; cbn [ncov_b].
  - rewrite nsel_eqb_eq, app_nil_r. split; [auto|].
    intros [H|[a [b [H1 [H2 _]]]]]; [assumption|].
    symmetry in H1. apply app_eq_nil in H1. destruct H1; congruence.
  - rewrite orb_true_iff, nsel_eqb_eq, IH. rewrite <- !app_assoc. cbn [app]. split.
    + intros [H|[H|[a [b [H1 [H2 H3]]]]]].
      * right. exists [], (c :: cs). rewrite app_nil_r. repeat split; [discriminate|assumption].
      * now left.
      * right. exists (c :: a), b. rewrite <- app_assoc in H3. subst cs. auto.
    + intros [H|[a [b [H1 [H2 H3]]]]]; [auto|].
      destruct a as [|x a].
      * left. now rewrite app_nil_r in H3.
      * cbn in H1. inversion H1; subst. right. right. exists a, b. rewrite <- app_assoc. auto.
Qed.

Lemma ncov_b_ncov n cs : ncov_b n [] cs = true <-> ncov n cs.
Proof. rewrite ncov_b_spec. reflexivity. Qed.

Lemma ncov_b_len n : forall cs pre, ncov_b n pre cs = true ->
  match n with NExact p | NWild p => length pre <= length p | NPanic => False end.
Proof.
  intros cs pre H. apply ncov_b_spec in H.
  destruct H as [->|[a [b [_ [_ ->]]]]]; rewrite app_length; lia.
Qed.

Lemma filter_disj_perm {A} (f g : A -> bool) l :
  (forall x, f x = true -> g x = false) ->
  Permutation (filter f l ++ filter g l) (filter (fun x => f x || g x) l).
Proof.
  intros D. induction l as [|a l IH]; cbn; [constructor|].
  destruct (f a) eqn:Ef.
  - rewrite (D _ Ef). cbn. now constructor.
  - destruct (g a); cbn; [|assumption].
    etransitivity; [apply Permutation_sym, Permutation_middle|]. now constructor.
Qed.

Section Select.
Variable R : Type.
Variable sel : R -> str.

Lemma spec_walk_perm rs : forall cs pre,
  Permutation (spec_walk R sel rs pre cs) (filter (fun r => ncov_b (norm (sel r)) pre cs) rs).
Proof.
  induction cs as [|c cs IH]; intros pre; cbn [spec_walk ncov_b]; [reflexivity|].
  etransitivity; [apply Permutation_app_head, IH|].
  apply (filter_disj_perm (fun r => nsel_eqb (norm (sel r)) (NWild pre))
                          (fun r => ncov_b (norm (sel r)) (pre ++ [c]) cs)).
  intros r E. apply nsel_eqb_eq in E.
  destruct (ncov_b (norm (sel r)) (pre ++ [c]) cs) eqn:F; [|reflexivity].
  apply ncov_b_len in F. rewrite E in F. rewrite app_length in F. cbn in F. lia.
Qed.

Lemma select_build rs name t0 :
  build R sel rs empty = Ok t0 -> select sel rs name = Ok (get_cs R t0 (split name)).
Proof.
  intros B. unfold select. rewrite set_rules_build, B. cbn [bind].
  unfold get_rules. apply get_split. lia.
Qed.

Lemma select_walk rs name :
  (forall r, In r rs -> norm (sel r) <> NPanic) -> wf_name name = true ->
  select sel rs name = Ok (spec_walk R sel rs [] (split name)).
Proof.
  intros NP WF. destruct (build_cases R sel rs empty) as [[(x & Hi & Hx) _]|[_ [t0 B]]]; [destruct (NP x Hi Hx)|].
  rewrite (select_build _ _ _ B). f_equal.
  unfold wf_name, wf_name_cs in WF. apply andb_true_iff in WF. destruct WF as [_ WF].
  rewrite (get_cs_walk R t0 (split name) [] t0 WF eq_refl).
  apply walk_spec. assumption.
Qed.

Lemma select_panic_iff rs name :
  select sel rs name = Panic PExplicit <-> exists r, In r rs /\ norm (sel r) = NPanic.
Proof.
  destruct (build_cases R sel rs empty) as [[E B]|[N [t0 B]]].
  - unfold select. rewrite set_rules_build, B. split; auto.
  - rewrite (select_build _ _ _ B). split; [discriminate|]. intros (x & Hi & Hx). destruct (N x Hi Hx).
Qed.

Lemma select_total rs name :
  (exists l, select sel rs name = Ok l) \/ select sel rs name = Panic PExplicit.
Proof.
  destruct (build_cases R sel rs empty) as [[E _]|[_ [t0 B]]].
  - right. apply select_panic_iff, E.
  - left. rewrite (select_build _ _ _ B). eauto.
Qed.

Lemma select_norm rs name :
  (forall r, In r rs -> norm (sel r) <> NPanic) -> wf_name name = true ->
  exists l, select sel rs name = Ok l /\
    Permutation l (filter (fun r => ncov_b (norm (sel r)) [] (split name)) rs) /\
    forall r, In r l <-> In r rs /\ ncov (norm (sel r)) (split name).
Proof.
  intros NP WF. eexists. split; [apply select_walk; assumption|].
  pose proof (spec_walk_perm rs (split name) []) as P. split; [assumption|].
  intros r. rewrite <- ncov_b_ncov, <- (filter_In (fun r => ncov_b (norm (sel r)) [] (split name))).
  split; apply Permutation_in; [exact P|symmetry; exact P].
Qed.
End Select.

(* well-formed selectors: normalisation is the identity, and agrees with the specification *)
Lemma norm_wf : forall scs, wf_sel_cs scs = true ->
  norm_cs scs = if bytes_eqb (last scs []) star_c then NWild (removelast scs) else NExact scs.
Proof.
  induction scs as [|c scs IH]; intros WF; [discriminate|].
  destruct scs as [|c2 rest].
  - cbn in WF. unfold nonempty in WF. cbn [norm_cs rest_nil last removelast].
    destruct (bytes_eqb c star_c); [reflexivity|]. destruct (is_nil c); [discriminate|reflexivity].
  - cbn [wf_sel_cs] in WF. apply andb_true_iff in WF. destruct WF as [WF1 WF].
    apply andb_true_iff in WF1. destruct WF1 as [Hc Hs]. unfold nonempty in Hc.
    change (last (c :: c2 :: rest) []) with (last (c2 :: rest) []).
    change (removelast (c :: c2 :: rest)) with (c :: removelast (c2 :: rest)).
    specialize (IH WF). remember (c2 :: rest) as tl eqn:Etl.
    cbn [norm_cs]. destruct (bytes_eqb c star_c); [discriminate|].
    destruct (is_nil c); [discriminate|]. rewrite IH.
    destruct (bytes_eqb (last tl []) star_c); reflexivity.
Qed.

Lemma wf_not_panic s : wf_sel s = true -> norm s <> NPanic.
Proof.
  unfold wf_sel, norm. intros WF. rewrite (norm_wf _ WF).
  destruct (bytes_eqb _ _); discriminate.
Qed.

Lemma is_prefix_spec : forall p l, is_prefix p l = true <-> exists q, l = p ++ q.
Proof. apply (prefix_test_spec bytes_eqb _ bytes_eqb_eq); reflexivity. Qed.

Lemma covers_cs_b_spec scs ncs : covers_cs_b scs ncs = true <-> covers_cs scs ncs.
Proof.
  unfold covers_cs_b, covers_cs. rewrite orb_true_iff, strs_eqb_eq. split.
  - intros [H|H]; [now left|]. right.
    destruct (rev scs) as [|l rp] eqn:Er; [discriminate|].
    apply andb_true_iff in H. destruct H as [H H3]. apply andb_true_iff in H. destruct H as [H1 H2].
    apply bytes_eqb_eq in H1. subst l. apply is_prefix_spec in H2. destruct H2 as [q ->].
    exists (rev rp), q. split; [|split; [reflexivity|]].
    + rewrite <- (rev_involutive scs), Er. reflexivity.
    + intros ->. apply Nat.ltb_lt in H3. rewrite app_nil_r, rev_length in H3. lia.
  - intros [H|[p [q [-> [-> Hq]]]]]; [now left|]. right.
    rewrite rev_app_distr. cbn [rev app]. rewrite bytes_eqb_refl, rev_involutive. cbn [andb].
    apply andb_true_iff. split; [apply is_prefix_spec; eauto|].
    apply Nat.ltb_lt. rewrite rev_length, app_length. destruct q; [congruence|cbn; lia].
Qed.

Lemma ncov_wf scs ncs : wf_sel_cs scs = true -> (ncov (norm_cs scs) ncs <-> covers_cs scs ncs).
Proof.
  intros WF. rewrite (norm_wf _ WF). unfold ncov, covers_cs.
  assert (NN : scs <> []) by (destruct scs; [discriminate|discriminate]).
  destruct (bytes_eqb (last scs []) star_c) eqn:El.
  - apply bytes_eqb_eq in El.
    assert (Es : scs = removelast scs ++ [star_c]) by (rewrite <- El; now apply app_removelast_last).
    split.
    + intros [H|[a [b [H1 [H2 H3]]]]]; [discriminate|]. inversion H3; subst a.
      right. exists (removelast scs), b. auto.
    + intros [H|[p [q [H1 [H2 H3]]]]].
      * right. exists (removelast scs), [star_c]. subst ncs. split; [assumption|]. split; [discriminate|reflexivity].
      * right. rewrite Es in H1. apply app_inj_tail in H1. destruct H1 as [H1 _].
        exists p, q. rewrite H1. auto.
  - split.
    + intros [H|[a [b [_ [_ H]]]]]; [inversion H; now left|discriminate].
    + intros [H|[p [q [H1 _]]]]; [left; now subst|].
      subst scs. rewrite last_last, bytes_eqb_refl in El. discriminate.
Qed.

Lemma ncov_b_covers_b s name : wf_sel s = true ->
  ncov_b (norm s) [] (split name) = covers_b s name.
Proof.
  intros WF. unfold covers_b. apply Bool.eq_true_iff_eq.
  rewrite ncov_b_ncov, covers_cs_b_spec. now apply ncov_wf.
Qed.

Lemma split_app_dot a b : split (a ++ dot :: b) = split a ++ split b.
Proof.
  induction a as [|c a IH]; cbn.
  - reflexivity.
  - destruct (N.eqb c dot); [now rewrite IH|].
    rewrite IH. pose proof (split_nonnil a). destruct (split a); [congruence|reflexivity].
Qed.

Lemma join_split s : join (split s) = s.
Proof.
  induction s as [|c s IH]; [reflexivity|].
  cbn [split]. pose proof (split_nonnil s) as NN. destruct (split s) as [|h t]; [congruence|].
  destruct (N.eqb c dot) eqn:E.
  - apply N.eqb_eq in E. subst c. change (join ([] :: h :: t)) with (dot :: join (h :: t)). now rewrite IH.
  - replace (join ((c :: h) :: t)) with (c :: join (h :: t)) by (destruct t; reflexivity). now rewrite IH.
Qed.

Lemma join_app : forall A B, A <> [] -> B <> [] -> join (A ++ B) = join A ++ dot :: join B.
Proof.
  induction A as [|a A IH]; intros B HA HB; [congruence|].
  destruct A as [|a2 A].
  - destruct B as [|b B]; [congruence|]. reflexivity.
  - change (join ((a :: a2 :: A) ++ B)) with (a ++ dot :: join ((a2 :: A) ++ B)).
    rewrite (IH B ltac:(discriminate) HB).
    change (join (a :: a2 :: A)) with (a ++ dot :: join (a2 :: A)).
    rewrite <- app_assoc. reflexivity.
Qed.

(* the component reading and the string reading of "covers" agree, for all strings *)
Lemma covers_split sel name : covers sel name <-> covers_cs (split sel) (split name).
Proof.
  unfold covers, covers_cs. split.
  - intros [->|[->|[p [q [-> ->]]]]].
    + now left.
    + right. exists [], (split name). split; [reflexivity|]. split; [reflexivity|apply split_nonnil].
    + right. exists (split p), (split q). rewrite !split_app_dot. split; [reflexivity|].
      split; [reflexivity|apply split_nonnil].
  - intros [H|[P [Q [H1 [H2 HQ]]]]].
    + left. rewrite <- (join_split sel), <- (join_split name). now rewrite H.
    + right. destruct P as [|p0 P].
      * left. rewrite <- (join_split sel), H1. reflexivity.
      * right. exists (join (p0 :: P)), (join Q).
        rewrite <- (join_split sel) at 1. rewrite <- (join_split name) at 1. rewrite H1, H2.
        rewrite !join_app by (try discriminate; assumption). split; reflexivity.
Qed.

Section Main.
Variable R : Type.
Variable sel : R -> str.

Theorem select_bind rs name :
  (forall r, In r rs -> wf_sel (sel r) = true) -> wf_name name = true ->
  exists l, select sel rs name = Ok l /\
    Permutation l (filter (fun r => covers_b (sel r) name) rs) /\
    (forall r, In r l <-> In r rs /\ covers (sel r) name).
Proof.
  intros WS WN.
  assert (NP : forall r, In r rs -> norm (sel r) <> NPanic) by (intros r H; apply wf_not_panic; auto).
  destruct (select_norm R sel rs name NP WN) as [l [E [P I]]].
  exists l. split; [assumption|]. split.
  - rewrite (filter_ext_in (fun r => covers_b (sel r) name) (fun r => ncov_b (norm (sel r)) [] (split name))); [assumption|].
    intros r Hr. symmetry. apply ncov_b_covers_b. auto.
  - intros r. rewrite I. split; intros [H1 H2]; (split; [assumption|]).
    + apply covers_split. apply (ncov_wf _ _ (WS _ H1)). assumption.
    + apply (ncov_wf _ _ (WS _ H1)). apply covers_split. assumption.
Qed.

(* order: by depth of the selector (wildcards from the root down, then the exact selector),
   within one depth in configuration order *)
Theorem select_order rs name :
  (forall r, In r rs -> wf_sel (sel r) = true) -> wf_name name = true ->
  select sel rs name = Ok (spec_walk R sel rs [] (split name)).
Proof.
  intros WS WN. apply select_walk; [|assumption]. intros r H. apply wf_not_panic. auto.
Qed.

(* appendHandler: a configuration whose only rule bound to the method is r registers exactly what
   the annotation r registers *)
Theorem append_same_as_annotation (St : Type) (add_rule : R -> St -> outcome St)
        (implicit r : R) name t s :
  get_rules t name = Ok [r] ->
  append_handler add_rule implicit t name None s =
  append_handler add_rule implicit empty name (Some r) s.
Proof.
  intros G. unfold append_handler. rewrite G. cbn [bind].
  assert (E : get_rules (@empty R) name = Ok []).
  { unfold get_rules. rewrite get_split by lia. f_equal.
    pose proof (split_nonnil name). destruct (split name) as [|c cs]; [congruence|].
    cbn. destruct cs; [destruct (is_nil c)|]; reflexivity. }
  rewrite E. reflexivity.
Qed.
End Main.

(* a selector that does not end in '*' covers only itself *)
Lemma exact_covers s name : last s 0%N <> 42%N -> (covers s name <-> s = name).
Proof.
  intros L. unfold covers. split; [|auto].
  intros [H|[H|[p [q [H _]]]]]; [assumption| |].
  - subst s. cbn in L. congruence.
  - exfalso. apply L. subst s. change (p ++ [dot; 42%N]) with (p ++ [dot] ++ [42%N]).
    rewrite app_assoc. apply last_last.
Qed.

(* which component lists make setRules panic: a '*' component, reached through non-empty non-'*'
   components, that is followed by anything but the end of the string (or one trailing dot) *)
Lemma norm_panic_iff : forall cs,
  norm_cs cs = NPanic <->
  exists a b, cs = a ++ star_c :: b /\ rest_nil b = false /\
              Forall (fun c => is_nil c = false /\ bytes_eqb c star_c = false) a.
Proof.
  intros cs. split.
  - induction cs as [|c cs IH]; cbn [norm_cs]; [discriminate|].
    destruct (bytes_eqb c star_c) eqn:Es.
    + apply bytes_eqb_eq in Es. subst c. destruct (rest_nil cs) eqn:Er; [discriminate|]. intros _. exists [], cs. auto.
    + destruct (is_nil c) eqn:En; [discriminate|]. intros H.
      destruct IH as [a [b [-> [Hb Ha]]]]; [destruct (norm_cs cs); [discriminate|discriminate|reflexivity]|].
      exists (c :: a), b. split; [reflexivity|]. split; [assumption|]. constructor; auto.
  - intros [a [b [-> [Hb Ha]]]]. induction Ha as [|x a [Hn Hs] _ IH]; cbn [app norm_cs].
    + rewrite bytes_eqb_refl, Hb. reflexivity.
    + rewrite Hs, Hn, IH. reflexivity.
Qed.

Lemma exact_binds_only_itself : forall (R : Type) (sel : R -> str) (rs : list R) (name : str) l r,
  (forall r, In r rs -> wf_sel (sel r) = true) -> wf_name name = true ->
  select sel rs name = Ok l -> In r l -> last (sel r) 0%N <> 42%N -> sel r = name.
Proof.
  intros R sel rs name l r WS WN E Hin L.
  destruct (select_bind R sel rs name WS WN) as [l' [E' [_ I]]].
  rewrite E in E'. inversion E'; subst l'. apply I in Hin. destruct Hin as [_ C].
  now apply (exact_covers _ _ L).
Qed.

Lemma select_total_panic_iff : forall (R : Type) (sel : R -> str) (rs : list R) (name : str),
  ((exists l, select sel rs name = Ok l) \/ select sel rs name = Panic PExplicit) /\
  (select sel rs name = Panic PExplicit <->
   exists r a b, In r rs /\ split (sel r) = a ++ star_c :: b /\ rest_nil b = false /\
                 Forall (fun c => is_nil c = false /\ bytes_eqb c star_c = false) a).
Proof.
  intros R sel rs name. split; [apply select_total|].
  rewrite select_panic_iff. split.
  - intros [r [Hin Hn]]. apply norm_panic_iff in Hn. destruct Hn as [a [b H]]. exists r, a, b. tauto.
  - intros [r [a [b [Hin H]]]]. exists r. split; [assumption|]. apply norm_panic_iff. eauto.
Qed.

Lemma healthz_bound : forall (R : Type) (sel : R -> str) (rs : list R) (hc hw : R) (name : str),
  sel hc = healthz_check -> sel hw = healthz_watch ->
  (forall r, In r rs -> wf_sel (sel r) = true) -> wf_name name = true ->
  exists l, select sel (rs ++ [hc; hw]) name = Ok l /\
    (In hc l <-> name = healthz_check) /\ (In hw l <-> name = healthz_watch).
Proof.
  intros R sel rs hc hw name Hc Hw WS WN.
  assert (WS' : forall r, In r (rs ++ [hc; hw]) -> wf_sel (sel r) = true).
  { intros r H. apply in_app_or in H. destruct H as [H|[<-|[<-|[]]]]; [auto|rewrite Hc|rewrite Hw]; reflexivity. }
  destruct (select_bind R sel _ name WS' WN) as [l [E [_ I]]]. exists l. split; [assumption|].
  rewrite !I, Hc, Hw.
  assert (Lc : last healthz_check 0%N <> 42%N) by (vm_compute; discriminate).
  assert (Lw : last healthz_watch 0%N <> 42%N) by (vm_compute; discriminate).
  rewrite (exact_covers _ name Lc), (exact_covers _ name Lw).
  split; (split; [intros [_ H]; now symmetry|intros ->; split; [apply in_or_app; right; cbn; auto|reflexivity]]).
Qed.
