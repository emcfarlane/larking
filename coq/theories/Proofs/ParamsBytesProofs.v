(* parse_bytes: every spelling (standard / URL alphabet, padded / unpadded) of a byte string is
   accepted and decodes to that byte string; and whatever parse_bytes accepts is a base64 decoding. *)
From Larking Require Import Base.GoSem Base.B64 Model.Params.
Local Open Scope N_scope.

Lemma b64_char_not_crlf url v : is_crlf (b64_char url v) = false.
Proof.
  unfold is_crlf, b64_char.
  destruct (v <? 26) eqn:A; [lia|]. destruct (v <? 52) eqn:B; [lia|].
  destruct (v <? 62) eqn:C; [lia|]. destruct (v =? 62) eqn:D; destruct url; reflexivity.
Qed.

Lemma b64_char_std_not_url v : is_url_char (b64_char false v) = false.
Proof.
  unfold is_url_char, b64_char.
  destruct (v <? 26) eqn:A; [lia|]. destruct (v <? 52) eqn:B; [lia|].
  destruct (v <? 62) eqn:C; [lia|]. destruct (v =? 62) eqn:D; reflexivity.
Qed.

Lemma b64_char_url_eq v : is_url_char (b64_char true v) = false -> b64_char true v = b64_char false v.
Proof.
  unfold is_url_char, b64_char.
  destruct (v <? 26) eqn:A; [reflexivity|]. destruct (v <? 52) eqn:B; [reflexivity|].
  destruct (v <? 62) eqn:C; [reflexivity|]. destruct (v =? 62) eqn:D; cbn; discriminate.
Qed.

Lemma b64_encode_Forall (P : N -> Prop) url pad m :
  (forall v, P (b64_char url v)) -> P 61 -> Forall P (b64_encode url pad m).
Proof.
  intros Hc Hp. rewrite b64_encode_sextets. apply Forall_app. split.
  - apply Forall_map, Forall_forall. intros v _. apply Hc.
  - destruct pad; [|constructor]. apply Forall_forall. intros x Hx. apply repeat_spec in Hx. subst x. exact Hp.
Qed.

Lemma strip_crlf_id s : Forall (fun c => is_crlf c = false) s -> strip_crlf s = s.
Proof.
  unfold strip_crlf. induction 1 as [|c s Hc _ IH]; cbn [filter]; [reflexivity|].
  rewrite Hc. cbn [negb]. f_equal. exact IH.
Qed.

Lemma b64_encode_strip url pad m : strip_crlf (b64_encode url pad m) = b64_encode url pad m.
Proof. apply strip_crlf_id, b64_encode_Forall; [apply b64_char_not_crlf|reflexivity]. Qed.

(* the padding decision of parse_bytes fits the text *)
Lemma pad_choice url pad m : exists pad',
  b64_encode url pad m = b64_encode url pad' m /\
  Nat.eqb (length (b64_encode url pad m) mod 4) 0 = pad'.
Proof.
  destruct pad.
  - exists true. split; [reflexivity|]. rewrite b64_len_pad. reflexivity.
  - eexists. split; [|reflexivity].
    destruct (Nat.eqb _ 0) eqn:E; [apply b64_raw_eq_pad, Nat.eqb_eq, E|reflexivity].
Qed.

Lemma b64_encode_std_no_url_char pad m : existsb is_url_char (b64_encode false pad m) = false.
Proof. apply existsb_false, Forall_forall, b64_encode_Forall; [apply b64_char_std_not_url|reflexivity]. Qed.

Lemma b64_encode_url_no_url_char pad m :
  existsb is_url_char (b64_encode true pad m) = false ->
  b64_encode true pad m = b64_encode false pad m.
Proof.
  rewrite !b64_encode_sextets, existsb_app, orb_false_iff, existsb_false. intros [E _].
  f_equal. apply map_ext_in. intros v Hv. apply b64_char_url_eq, E, in_map, Hv.
Qed.

(* the alphabet decision of parse_bytes fits the text *)
Lemma alphabet_choice url pad m : exists url',
  b64_encode url pad m = b64_encode url' pad m /\
  existsb is_url_char (b64_encode url pad m) = url'.
Proof.
  destruct url.
  - destruct (existsb is_url_char (b64_encode true pad m)) eqn:E.
    + exists true. split; reflexivity.
    + exists false. split; [apply b64_encode_url_no_url_char; exact E|reflexivity].
  - exists false. split; [reflexivity|apply b64_encode_std_no_url_char].
Qed.

Theorem parse_bytes_all_spellings : forall url pad m,
  Forall (fun b => b < 256) m -> parse_bytes (b64_encode url pad m) = Some m.
Proof.
  intros url pad m H. unfold parse_bytes. rewrite b64_encode_strip.
  destruct (pad_choice url pad m) as (pad' & Ep & Hp). rewrite Hp, Ep.
  destruct (alphabet_choice url pad' m) as (url' & Eu & Hu). rewrite Hu, Eu.
  apply b64_roundtrip. exact H.
Qed.

Theorem parse_bytes_sound : forall raw v, parse_bytes raw = Some v ->
  exists url pad, b64_decode url pad (strip_crlf raw) = Some v.
Proof.
  intros raw v H. unfold parse_bytes in H. eauto.
Qed.

Print Assumptions parse_bytes_all_spellings.
Print Assumptions parse_bytes_sound.
