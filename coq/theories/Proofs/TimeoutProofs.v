(* decodeTimeout (Model/Timeout.v) accepts exactly the strings of the gRPC timeout grammar, `legal`,
   and returns value x unit clamped to the largest Duration. The eight-digit bound and the hours
   test keep the int64 product from wrapping. *)
From Larking Require Import Base.GoSem Model.Timeout.
Local Open Scope Z_scope.

Lemma digits_val_bound : forall ds acc, forallb is_digit ds = true -> 0 <= acc ->
  acc * 10 ^ Z.of_nat (length ds) <= digits_val acc ds < (acc + 1) * 10 ^ Z.of_nat (length ds).
Proof.
  induction ds as [|d r IH]; intros acc H Ha; cbn [digits_val length].
  - cbn. lia.
  - cbn [forallb] in H. apply andb_true_iff in H. destruct H as [Hd Hr].
    unfold is_digit in Hd.
    specialize (IH (acc * 10 + (Z.of_N d - 48)) Hr ltac:(lia)).
    rewrite Nat2Z.inj_succ, Z.pow_succ_r by lia.
    assert (0 < 10 ^ Z.of_nat (length r)) by (apply Z.pow_pos_nonneg; lia).
    nia.
Qed.

Lemma digits_val_8 ds : forallb is_digit ds = true -> (length ds <= 8)%nat -> 0 <= digits_val 0 ds < 100000000.
Proof.
  intros Hd Hl. pose proof (digits_val_bound ds 0 Hd ltac:(lia)) as B.
  assert (10 ^ Z.of_nat (length ds) <= 10 ^ 8) by (apply Z.pow_le_mono_r; lia).
  change (10 ^ 8) with 100000000 in *. lia.
Qed.

Lemma unit_ns_cases u d : unit_ns u = Some d -> In d [3600000000000; 60000000000; 1000000000; 1000000; 1000; 1].
Proof.
  unfold unit_ns. repeat match goal with |- context [if ?c then _ else _] => destruct c end;
    intros H; inversion H; cbn; auto 7.
Qed.
Lemma unit_ns_pos u d : unit_ns u = Some d -> 1 <= d <= 3600000000000.
Proof. intros H. apply unit_ns_cases in H. cbn [In] in H. lia. Qed.

Theorem decode_timeout_sound s ns : decode_timeout s = Some ns -> legal s ns.
Proof.
  unfold decode_timeout. destruct (Nat.ltb (length s) 2) eqn:L2; [discriminate|].
  destruct (Nat.ltb 9 (length s)) eqn:L9; [discriminate|].
  destruct (unit_ns (last s 0%N)) as [d|] eqn:U; [|discriminate].
  unfold parse_uint. destruct (removelast s) as [|c r] eqn:RL; [discriminate|].
  rewrite <- RL. destruct (forallb is_digit (removelast s)) eqn:FD; [|discriminate].
  intros H. exists (removelast s), (last s 0%N), d.
  assert (Hne : s <> []) by (destruct s; [cbn in L2; lia|discriminate]).
  assert (RLen : length (removelast s) = (length s - 1)%nat) by (rewrite removelast_firstn_len, firstn_length; lia).
  repeat split; auto; try lia.
  { now apply app_removelast_last. }
  pose proof (unit_ns_cases _ _ U) as Ud. cbn [In] in Ud.
  pose proof (digits_val_8 (removelast s) FD ltac:(lia)) as B.
  unfold max_hours, max_i64 in *. change ((2 ^ 63 - 1) / 3600000000000) with 2562047 in H.
  destruct ((d =? 3600000000000) && (2562047 <? digits_val 0 (removelast s))) eqn:C; inversion H; subst.
  - lia.
  - (* the product does not wrap: hours are bounded by the test, the other units by the eight digits *)
    rewrite wrap64_small; [lia|].
    destruct (Z.eqb_spec d 3600000000000) as [->|NE]; [lia|]. assert (d <= 60000000000) by lia. nia.
Qed.

Theorem decode_timeout_complete s ns : legal s ns -> decode_timeout s = Some ns.
Proof.
  intros (ds & u & d & -> & Hl & Hd & Hu & ->).
  assert (D : exists ns', decode_timeout (ds ++ [u]) = Some ns').
  { unfold decode_timeout. rewrite app_length. cbn [length].
    replace (Nat.ltb (length ds + 1) 2) with false by lia.
    replace (Nat.ltb 9 (length ds + 1)) with false by lia.
    rewrite last_last, Hu, removelast_last. unfold parse_uint.
    destruct ds; [cbn in Hl; lia|]. rewrite Hd.
    destruct (_ && _); eauto. }
  destruct D as [ns' D]. rewrite D. f_equal.
  apply decode_timeout_sound in D. destruct D as (ds' & u' & d' & E & _ & _ & Hu' & ->).
  apply app_inj_tail in E. destruct E as [-> ->]. congruence.
Qed.

Lemma decode_timeout_range s ns : decode_timeout s = Some ns -> 0 <= ns <= max_i64.
Proof.
  intros H. apply decode_timeout_sound in H. destruct H as (ds & u & d & _ & Hl & Hd & Hu & ->).
  pose proof (digits_val_bound ds 0 Hd ltac:(lia)). pose proof (unit_ns_pos _ _ Hu).
  assert (0 < 10 ^ Z.of_nat (length ds)) by (apply Z.pow_pos_nonneg; lia). unfold max_i64. nia.
Qed.

Lemma legal_no_sign s ns c r : legal s ns -> s = c :: r -> c <> 43%N /\ c <> 45%N /\ c <> 32%N.
Proof.
  intros (ds & u & d & -> & Hl & Hd & _) E. destruct ds as [|x ds']; [cbn in Hl; lia|].
  cbn [app] in E. inversion E; subst. cbn [forallb] in Hd. apply andb_true_iff in Hd.
  destruct Hd as [Hx _]. unfold is_digit in Hx. lia.
Qed.
