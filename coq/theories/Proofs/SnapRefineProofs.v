(* The heap model of the copy-on-write routing state (Model/Snapshot.v, C12) refines the abstract
   routing map (Spec/AbsTrie.v, C11), instantiated at keys (label path from the root, verb).
     snap_find h s labels verb   the binding a snapshot stores under (labels, verb)
     SAbs h s t                  the snapshot denotes the map t (extensionally: a_find = snap_find)
     SExact h s t                the stronger, intensional relation: the binding LIST of the node at
                                 labels is the sublist of t at that node (shadowed entries included)
   Results: route_snap is a_lookup; clone preserves the denotation and leaves the original alone; MAdd
   is a store; MDel is a_del -- under SExact, or under SAbs when nothing is shadowed; under SAbs alone
   it is refuted (MAdd conses onto the binding list, so an MAdd over a bound key shadows the old
   binding and MDel of the newer method brings the old one back); exec over any schedule: the
   published snapshot denotes the fold of the stored writers' mutations; a request sees a_lookup of
   the map published at its load. *)
From Larking Require Import Base.GoSem Model.Registry Model.Snapshot Proofs.SnapshotProofs.
From Larking Require Import Spec.AbsTrie.
Local Open Scope nat_scope.

Definition lkey := list nat.
Definition lkey_eqb : lkey -> lkey -> bool := list_eqb Nat.eqb.
Lemma lkey_eqb_eq a b : lkey_eqb a b = true <-> a = b.
Proof. apply list_eqb_eq. intros x y. apply Nat.eqb_eq. Qed.
Lemma lkey_eqb_refl a : lkey_eqb a a = true.
Proof. exact (eqb_refl_of _ lkey_eqb_eq a). Qed.
Lemma lkey_eqb_neq a b : lkey_eqb a b = false <-> a <> b.
Proof. exact (eqb_neq_of _ lkey_eqb_eq a b). Qed.

Notation amap := (atrie lkey nat nat).
Notation s_find := (a_find lkey nat nat lkey_eqb Nat.eqb).
Notation s_lookup := (a_lookup lkey nat nat lkey_eqb Nat.eqb 0).
Notation s_add := (a_add lkey nat nat lkey_eqb Nat.eqb Nat.eqb 0).
Notation s_del := (a_del lkey nat nat Nat.eqb).
Definition sf_cons := a_find_cons lkey nat nat lkey_eqb Nat.eqb.
Definition sf_del := a_find_del lkey nat nat lkey_eqb Nat.eqb Nat.eqb lkey_eqb_eq Nat.eqb_eq.
Definition sa_inv := a_add_inv lkey nat nat lkey_eqb Nat.eqb Nat.eqb 0 Nat.eqb_eq Nat.eqb_eq.

Fixpoint walk (h : heap) (l : loc) (labels : list nat) : option loc :=
  match labels with
  | [] => Some l
  | lab :: rest => match aget lab (nkids (node_at h l)) with Some p => walk h p rest | None => None end
  end.
Definition binds_at (h : heap) (s : snap) (labels : list nat) : list (nat * method) :=
  match walk h (sroot s) labels with Some l => nbinds (node_at h l) | None => [] end.
Definition snap_find (h : heap) (s : snap) (labels : list nat) (verb : nat) : option method :=
  match walk h (sroot s) labels with Some l => aget verb (nbinds (node_at h l)) | None => None end.
Definition SAbs (h : heap) (s : snap) (t : amap) : Prop :=
  forall labels verb, s_find t labels verb = snap_find h s labels verb.

(* the entries of t at one node, in order, as a binding list *)
Definition a_at (t : amap) (labels : lkey) : list (nat * method) :=
  map (fun e => (snd (fst e), snd e)) (filter (fun e => lkey_eqb (fst (fst e)) labels) t).
Definition SExact (h : heap) (s : snap) (t : amap) : Prop :=
  forall labels, a_at t labels = binds_at h s labels.

(* the region is a tree: a node is reached from the root by at most one label path *)
Definition tree (h : heap) (s : snap) : Prop :=
  forall q1 q2 l, walk h (sroot s) q1 = Some l -> walk h (sroot s) q2 = Some l -> q1 = q2.
(* no binding list along the tree binds a verb twice *)
Definition NoShadow (h : heap) (s : snap) : Prop := forall q, NoDup (map fst (binds_at h s q)).
(* the writer's working copy *)
Definition Wf (b : loc) (h : heap) (s : snap) : Prop :=
  Own b h s /\ tree h s /\ ~ In (shm s) (sregion s) /\ ~ In (scm s) (sregion s).

Lemma snap_find_binds h s labels verb : snap_find h s labels verb = aget verb (binds_at h s labels).
Proof. unfold snap_find, binds_at. destruct (walk h (sroot s) labels); reflexivity. Qed.

Lemma a_at_cons k v m t q : a_at ((k, v, m) :: t) q = if lkey_eqb k q then (v, m) :: a_at t q else a_at t q.
Proof. unfold a_at. cbn [filter fst snd]. destruct (lkey_eqb k q); reflexivity. Qed.
Lemma s_find_a_at t labels verb : s_find t labels verb = aget verb (a_at t labels).
Proof.
  induction t as [|[[k v] m] t IH]; [reflexivity|].
  rewrite sf_cons, a_at_cons. destruct (lkey_eqb k labels); cbn [andb aget]; [|exact IH].
  destruct (v =? verb); [reflexivity|exact IH].
Qed.
Lemma SExact_SAbs h s t : SExact h s t -> SAbs h s t.
Proof. intros E labels verb. rewrite s_find_a_at, snap_find_binds, E. reflexivity. Qed.
Lemma a_at_del t m q : a_at (s_del t m) q = filter (fun e => negb (snd e =? m)) (a_at t q).
Proof.
  induction t as [|[[k v] m0] t IH]; [reflexivity|].
  unfold a_del. cbn [filter snd]. fold (s_del t m). rewrite a_at_cons.
  destruct (m0 =? m) eqn:E; cbn [negb].
  - rewrite IH. destruct (lkey_eqb k q); [|reflexivity]. cbn [filter snd]. rewrite E. reflexivity.
  - rewrite a_at_cons. destruct (lkey_eqb k q); [|exact IH]. cbn [filter snd]. rewrite E. cbn [negb]. rewrite IH. reflexivity.
Qed.
Lemma a_at_nodup t : (forall q, NoDup (map fst (a_at t q))) -> NoDup (map fst t).
Proof.
  induction t as [|[[k1 v1] m1] t IH]; intro G; [constructor|]. cbn [map fst]. constructor.
  - intro Hin. pose proof (G k1) as Gk. rewrite a_at_cons, lkey_eqb_refl in Gk. cbn [map fst] in Gk.
    inversion Gk as [|x l Hnotin _]; subst. apply Hnotin.
    apply in_map_iff in Hin. destruct Hin as ([[k0 v0] m0] & Hk & Hin). cbn [fst] in Hk. injection Hk as -> ->.
    apply in_map_iff. exists (v1, m0). split; [reflexivity|]. unfold a_at.
    apply in_map_iff. exists (k1, v1, m0). split; [reflexivity|]. apply filter_In. split; [exact Hin|apply lkey_eqb_refl].
  - apply IH. intro q. pose proof (G q) as Gq. rewrite a_at_cons in Gq. destruct (lkey_eqb k1 q); [|exact Gq].
    cbn [map fst] in Gq. inversion Gq; assumption.
Qed.
Lemma SExact_nodup h s t : SExact h s t -> NoShadow h s -> NoDup (map fst t).
Proof. intros E N. apply a_at_nodup. intro q. rewrite (E q). apply N. Qed.

Lemma finish_walk h rest : forall l verb,
  finish h l rest verb = match walk h l rest with Some p => lookup_verb (node_at h p) verb | None => None end.
Proof.
  induction rest as [|lab rest IH]; intros l verb; cbn [finish walk]; [reflexivity|].
  destruct (aget lab (nkids (node_at h l))) as [p|]; [apply IH|reflexivity].
Qed.

Theorem snap_route_is_lookup h s t labels verb : SAbs h s t ->
  route_snap h (Some s) labels verb = s_lookup t labels verb.
Proof.
  intro A. unfold route_snap, a_lookup. rewrite (A labels verb), (A labels 0), finish_walk.
  unfold snap_find, lookup_verb. destruct (walk h (sroot s) labels) as [p|]; reflexivity.
Qed.

Lemma walk_app h q1 : forall x q2,
  walk h x (q1 ++ q2) = match walk h x q1 with Some y => walk h y q2 | None => None end.
Proof.
  induction q1 as [|a q1 IH]; intros x q2; cbn [app walk]; [reflexivity|].
  destruct (aget a (nkids (node_at h x))) as [p|]; [apply IH|reflexivity].
Qed.
Lemma walk_in_region h reg : kids_closed h reg -> forall q x y, In x reg -> walk h x q = Some y -> In y reg.
Proof.
  intros C. induction q as [|a q IH]; intros x y Hx W; cbn [walk] in W.
  - injection W as <-. exact Hx.
  - destruct (aget a (nkids (node_at h x))) as [p|] eqn:K; [|discriminate].
    apply (IH p y); [|exact W]. exact (child_in_region h reg x a p C Hx K).
Qed.
Lemma walk_root_region h s q y : closed h s -> walk h (sroot s) q = Some y -> In y (sregion s).
Proof. intros [R C]. exact (walk_in_region h _ C q (sroot s) y R). Qed.
(* walks from the region depend only on the child lists of the region *)
Lemma walk_ext h h' reg : kids_closed h reg ->
  (forall x, In x reg -> nkids (node_at h' x) = nkids (node_at h x)) ->
  forall q x, In x reg -> walk h' x q = walk h x q.
Proof.
  intros C F. induction q as [|a q IH]; intros x Hx; cbn [walk]; [reflexivity|].
  rewrite (F x Hx). destruct (aget a (nkids (node_at h x))) as [p|] eqn:K; [|reflexivity].
  apply IH. exact (child_in_region h reg x a p C Hx K).
Qed.
Lemma walks_ext h h' s : closed h s -> (forall x, In x (sregion s) -> nkids (node_at h' x) = nkids (node_at h x)) ->
  (forall q, walk h' (sroot s) q = walk h (sroot s) q) /\ (tree h s -> tree h' s).
Proof.
  intros [R C] F. assert (W : forall q, walk h' (sroot s) q = walk h (sroot s) q) by (intro q; exact (walk_ext h h' _ C F q _ R)).
  split; [exact W|]. intros T q1 q2 l W1 W2. rewrite W in W1, W2. exact (T q1 q2 l W1 W2).
Qed.

(* a snapshot's denotation depends only on the nodes of its region *)
Lemma region_ext h h' s : closed h s -> (forall x, In x (sregion s) -> node_at h' x = node_at h x) ->
  (forall q, binds_at h' s q = binds_at h s q) /\ (tree h s -> tree h' s).
Proof.
  intros Cl F. destruct (walks_ext h h' s Cl) as [W T]; [intros x Hx; rewrite (F x Hx); reflexivity|].
  split; [|exact T]. intro q. unfold binds_at. rewrite W. destruct (walk h (sroot s) q) as [y|] eqn:E; [|reflexivity].
  rewrite (F y (walk_root_region h s q y Cl E)). reflexivity.
Qed.
Lemma cells_nodes h h' (reg : list loc) : (forall x, In x reg -> cell_at h' x = cell_at h x) ->
  forall x, In x reg -> node_at h' x = node_at h x.
Proof. intros F x Hx. unfold node_at. rewrite (F x Hx). reflexivity. Qed.

Lemma SExact_ext h h' s t : (forall q, binds_at h' s q = binds_at h s q) -> SExact h s t -> SExact h' s t.
Proof. intros B E q. rewrite B. apply E. Qed.
Lemma SAbs_ext h h' s t : (forall q, binds_at h' s q = binds_at h s q) -> SAbs h s t -> SAbs h' s t.
Proof. intros B A q v. rewrite snap_find_binds, B, <- snap_find_binds. apply A. Qed.
Lemma NoShadow_ext h h' s : (forall q, binds_at h' s q = binds_at h s q) -> NoShadow h s -> NoShadow h' s.
Proof. intros B N q. rewrite B. apply N. Qed.

Lemma remap_inj reg b x y : In x reg -> In y reg -> remap reg b x = remap reg b y -> x = y.
Proof.
  intros Hx Hy. unfold remap.
  destruct (index_of_spec x reg Hx) as (i & -> & Nx & _). destruct (index_of_spec y reg Hy) as (j & -> & Ny & _).
  intro E. assert (i = j) by lia. congruence.
Qed.

Lemma clone_walk h s : closed h s -> forall q x, In x (sregion s) ->
  walk (fst (clone_snap h (Some s))) (remap (sregion s) (next h) x) q =
  match walk h x q with Some y => Some (remap (sregion s) (next h) y) | None => None end.
Proof.
  intros Cl. induction q as [|a q IH]; intros x Hx; [reflexivity|].
  cbn [walk]. rewrite (clone_node_at h s x Hx). cbn [clone_node nkids]. rewrite aget_map_snd.
  destruct (aget a (nkids (node_at h x))) as [p|] eqn:K; [|reflexivity].
  apply IH. exact (child_in_region h _ x a p (proj2 Cl) Hx K).
Qed.

Lemma clone_some_abs h s h' s' : closed h s -> clone_snap h (Some s) = (h', s') ->
  (forall q, binds_at h' s' q = binds_at h s q) /\ (tree h s -> tree h' s').
Proof.
  intros Cl E.
  assert (W : forall q, walk h' (sroot s') q =
                        match walk h (sroot s) q with Some y => Some (remap (sregion s) (next h) y) | None => None end).
  { intro q. pose proof (clone_walk h s Cl q (sroot s) (proj1 Cl)) as W. rewrite E in W. injection E as _ <-. exact W. }
  pose proof (clone_node_at h s) as NA. rewrite E in NA. cbn [fst] in NA.
  split.
  - intro q. unfold binds_at. rewrite W. destruct (walk h (sroot s) q) as [y|] eqn:Wq; [|reflexivity].
    rewrite (NA y (walk_root_region h s q y Cl Wq)). reflexivity.
  - intros T q1 q2 l W1 W2. rewrite W in W1, W2.
    destruct (walk h (sroot s) q1) as [y1|] eqn:E1; [|discriminate].
    destruct (walk h (sroot s) q2) as [y2|] eqn:E2; [|discriminate].
    apply (T q1 q2 y1 E1). rewrite E2. f_equal.
    apply (remap_inj (sregion s) (next h)); [exact (walk_root_region h s q2 y2 Cl E2)|exact (walk_root_region h s q1 y1 Cl E1)|congruence].
Qed.

(* the clone of the nil state: one empty node *)
Lemma clone_none_abs h h' s' : clone_snap h None = (h', s') -> (forall q, binds_at h' s' q = []) /\ tree h' s'.
Proof.
  intro E.
  assert (N : node_at h' (sroot s') = Node [] []).
  { injection E as <- <-. unfold node_at, cell_at. cbn [cells sroot aget]. rewrite Nat.eqb_refl. reflexivity. }
  assert (W : forall q, walk h' (sroot s') q = match q with [] => Some (sroot s') | _ => None end).
  { intros [|a q]; [reflexivity|]. cbn [walk]. rewrite N. reflexivity. }
  split.
  - intro q. unfold binds_at. rewrite W. destruct q; [rewrite N|]; reflexivity.
  - intros q1 q2 l W1 W2. rewrite W in W1, W2. destruct q1; [|discriminate]. destruct q2; [reflexivity|discriminate].
Qed.

Lemma clone_disjoint h p : let s' := snd (clone_snap h p) in ~ In (shm s') (sregion s') /\ ~ In (scm s') (sregion s').
Proof.
  destruct p as [s|]; cbn [clone_snap snd shm scm sregion].
  - split; intro Q; apply in_seq in Q; lia.
  - split; intros [Q|[]]; lia.
Qed.

Theorem clone_preserves_abs h s t h' s' :
  closed h s -> (forall l, In l (sregion s) -> l < next h) -> clone_snap h (Some s) = (h', s') ->
  SAbs h s t -> SAbs h' s' t /\ SAbs h' s t.
Proof.
  intros Cl B E A. split.
  - intros q v. rewrite snap_find_binds, (proj1 (clone_some_abs h s h' s' Cl E)), <- snap_find_binds. apply A.
  - (* the original is untouched by its clone *)
    destruct (clone_spec h (Some s) h' s') as ([F _] & Fr & _); [intros s1 [= <-]; exact Cl|exact E|].
    apply (SAbs_ext h h' s t); [|exact A]. apply (region_ext h h' s Cl), cells_nodes.
    intros x Hx. apply Fr. intro Q. pose proof (F x Q). pose proof (B x Hx). lia.
Qed.

(* the child lists of the region: one more entry, at l *)
Lemma ae_kids h h2 reg l lab p : AddEdge h h2 reg l lab p -> forall x a, In x reg ->
  aget a (nkids (node_at h2 x)) = if (x =? l) && (lab =? a) then Some p else aget a (nkids (node_at h x)).
Proof.
  intros [_ P _ E2l _ E2o] x a Hx. destruct (Nat.eqb_spec x l) as [->|Nl]; cbn [andb].
  - rewrite E2l. cbn [nkids aset aget]. destruct (lab =? a); reflexivity.
  - rewrite (E2o x Nl); [reflexivity|]. intro Q; subst x. exact (P Hx).
Qed.
Lemma ae_fwd h h2 reg l lab p : AddEdge h h2 reg l lab p ->
  forall q x y, In x reg -> walk h x q = Some y -> walk h2 x q = Some y.
Proof.
  intros AE. pose proof AE as [C _ N _ _ _]. induction q as [|a q IH]; intros x y Hx W; cbn [walk] in *; [exact W|].
  rewrite (ae_kids _ _ _ _ _ _ AE x a Hx). destruct (aget a (nkids (node_at h x))) as [c|] eqn:K; [|discriminate].
  destruct ((x =? l) && (lab =? a)) eqn:B.
  - apply andb_true_iff in B. destruct B as [B1 B2]. apply Nat.eqb_eq in B1, B2. subst x a. rewrite N in K. discriminate.
  - apply (IH c y); [|exact W]. exact (child_in_region h reg x a c C Hx K).
Qed.
Lemma ae_bwd h h2 reg l lab p : AddEdge h h2 reg l lab p ->
  forall q x y, In x reg -> walk h2 x q = Some y ->
  walk h x q = Some y \/ (y = p /\ exists q1, q = q1 ++ [lab] /\ walk h x q1 = Some l).
Proof.
  intros AE. pose proof AE as [C _ _ _ E2p _]. induction q as [|a q IH]; intros x y Hx W; cbn [walk] in *; [left; exact W|].
  rewrite (ae_kids _ _ _ _ _ _ AE x a Hx) in W. destruct ((x =? l) && (lab =? a)) eqn:B.
  - (* over the new edge: p has no children, so the walk ends there *)
    apply andb_true_iff in B. destruct B as [B1 B2]. apply Nat.eqb_eq in B1, B2. subst x a. right.
    destruct q as [|a' q']; cbn [walk] in W; [|rewrite E2p in W; discriminate].
    injection W as <-. split; [reflexivity|]. exists []. split; reflexivity.
  - destruct (aget a (nkids (node_at h x))) as [c|] eqn:K; [|discriminate].
    assert (Hc : In c reg) by exact (child_in_region h reg x a c C Hx K).
    destruct (IH c y Hc W) as [L|(Ey & q1 & Eq & W1)]; [left; exact L|]. right. split; [exact Ey|].
    exists (a :: q1). split; [rewrite Eq; reflexivity|]. cbn [walk]. rewrite K. exact W1.
Qed.
Lemma ae_edge h h2 reg l lab p : AddEdge h h2 reg l lab p ->
  forall q1 x, In x reg -> walk h x q1 = Some l -> walk h2 x (q1 ++ [lab]) = Some p.
Proof.
  intros AE q1 x Hx W. rewrite walk_app, (ae_fwd _ _ _ _ _ _ AE q1 x l Hx W). cbn [walk].
  rewrite (ae2l _ _ _ _ _ _ AE). cbn [nkids aset aget]. rewrite Nat.eqb_refl. reflexivity.
Qed.

(* what the new edge does to a snapshot rooted in the region: the same bindings everywhere, still a tree *)
Lemma ae_snapshot h h2 s s2 l lab p pre : AddEdge h h2 (sregion s) l lab p ->
  In (sroot s) (sregion s) -> sroot s2 = sroot s -> tree h s -> walk h (sroot s) pre = Some l ->
  (forall q, binds_at h2 s2 q = binds_at h s q) /\ tree h2 s2 /\ walk h2 (sroot s2) (pre ++ [lab]) = Some p.
Proof.
  intros AE Hr R T Wl. pose proof AE as [C P _ E2l E2p E2o].
  assert (UNR : forall q, walk h (sroot s) q <> Some p).
  { intros q Q. exact (P (walk_in_region h _ C q (sroot s) p Hr Q)). }
  split; [|split].
  - intro q. unfold binds_at. rewrite R. destruct (walk h (sroot s) q) as [z|] eqn:W.
    + rewrite (ae_fwd _ _ _ _ _ _ AE q (sroot s) z Hr W).
      assert (Hz : In z (sregion s)) by exact (walk_in_region h _ C q (sroot s) z Hr W).
      destruct (Nat.eq_dec z l) as [->|Nl]; [rewrite E2l; reflexivity|].
      rewrite (E2o z Nl); [reflexivity|]. intro Q; subst z. exact (P Hz).
    + (* a walk that exists only in h2 ends at the fresh node *)
      destruct (walk h2 (sroot s) q) as [y|] eqn:W2; [|reflexivity].
      destruct (ae_bwd _ _ _ _ _ _ AE q (sroot s) y Hr W2) as [W'|(-> & _)]; [congruence|]. rewrite E2p. reflexivity.
  - intros q1 q2 y W1 W2. rewrite R in W1, W2.
    destruct (ae_bwd _ _ _ _ _ _ AE q1 (sroot s) y Hr W1) as [A1|(E1 & r1 & Eq1 & A1)];
      destruct (ae_bwd _ _ _ _ _ _ AE q2 (sroot s) y Hr W2) as [A2|(E2 & r2 & Eq2 & A2)].
    + apply (T q1 q2 y A1 A2).
    + subst y. exfalso. apply (UNR q1 A1).
    + subst y. exfalso. apply (UNR q2 A2).
    + rewrite Eq1, Eq2. f_equal. apply (T r1 r2 l A1 A2).
  - rewrite R. apply (ae_edge _ _ _ _ _ _ AE pre (sroot s) Hr Wl).
Qed.

Lemma nav_create_abs b labels : forall h s l pre h' s' l' ws,
  Wf b h s -> walk h (sroot s) pre = Some l -> nav_create h s l labels = (h', s', l', ws) ->
  Wf b h' s' /\ walk h' (sroot s') (pre ++ labels) = Some l' /\ (forall q, binds_at h' s' q = binds_at h s q).
Proof.
  induction labels as [|lab rest IH]; intros h s l pre h' s' l' ws W Wl E; cbn [nav_create] in E.
  - injection E as <- <- <- <-. rewrite app_nil_r. auto.
  - pose proof W as (O & T & D1 & D2).
    assert (Hl : In l (sregion s)) by exact (walk_root_region h s pre l (proj2 O) Wl).
    replace (pre ++ lab :: rest) with ((pre ++ [lab]) ++ rest) by (rewrite <- app_assoc; reflexivity).
    destruct (aget lab (nkids (node_at h l))) as [c|] eqn:K.
    + apply (IH h s c (pre ++ [lab]) h' s' l' ws W); [|exact E]. rewrite walk_app, Wl. cbn [walk]. rewrite K. reflexivity.
    + destruct (new_edge_spec b h s l lab O Hl K) as (O2 & _ & _ & AE). cbn [al] in E.
      destruct (nav_create _ _ _ rest) as [[[h3 s3] l3] ws3] eqn:E3. injection E as <- <- <- <-.
      destruct (ae_snapshot _ _ s (Snap (sroot s) (next h :: sregion s) (shm s) (scm s)) l lab _ pre
                  AE (proj1 (proj2 O)) eq_refl T Wl) as (B2 & T2 & W2).
      (* the fresh location is neither of the two map cells *)
      assert (D : forall x, In x (footprint s) -> ~ In x (sregion s) -> ~ In x (next h :: sregion s)).
      { intros x Hx Dx [Q|Q]; [pose proof (proj1 O x Hx); lia|exact (Dx Q)]. }
      destruct (IH _ _ _ (pre ++ [lab]) _ _ _ _
                  (conj O2 (conj T2 (conj (D _ (or_introl eq_refl) D1) (D _ (or_intror (or_introl eq_refl)) D2)))) W2 E3)
        as (A2 & A3 & A4).
      split; [exact A2|]. split; [exact A3|]. intro q. rewrite A4. apply B2.
Qed.

(* a map t' is t with (k, v) -> m stored: replace or insert that key, everything else unchanged *)
Definition is_store (t : amap) (k : lkey) (v : nat) (m : nat) (t' : amap) : Prop :=
  forall k' v', s_find t' k' v' = if lkey_eqb k k' && (v =? v') then Some m else s_find t k' v'.
Definition a_store (t : amap) (k : lkey) (v m : nat) : amap := (k, v, m) :: t.
Definition a_put (t : amap) (k : lkey) (v m : nat) : amap :=
  (k, v, m) :: filter (fun e => negb (lkey_eqb (fst (fst e)) k && (snd (fst e) =? v))) t.
Lemma a_store_is_store t k v m : is_store t k v m (a_store t k v m).
Proof. intros k' v'. unfold a_store. rewrite sf_cons. reflexivity. Qed.
Lemma s_find_filter_other t k v k' v' : lkey_eqb k k' && (v =? v') = false ->
  s_find (filter (fun e => negb (lkey_eqb (fst (fst e)) k && (snd (fst e) =? v))) t) k' v' = s_find t k' v'.
Proof.
  intro N. induction t as [|[[k0 v0] m0] t IH]; [reflexivity|]. cbn [filter fst snd].
  destruct (lkey_eqb k0 k && (v0 =? v)) eqn:E; cbn [negb].
  - rewrite IH, sf_cons. apply andb_true_iff in E. destruct E as [E1 E2]. apply lkey_eqb_eq in E1. apply Nat.eqb_eq in E2.
    subst k0 v0. rewrite N. reflexivity.
  - rewrite !sf_cons, IH. reflexivity.
Qed.
Lemma a_put_is_store t k v m : is_store t k v m (a_put t k v m).
Proof.
  intros k' v'. unfold a_put. rewrite sf_cons. destruct (lkey_eqb k k' && (v =? v')) eqn:E; [reflexivity|].
  apply s_find_filter_other. exact E.
Qed.
Lemma a_put_unbound t k v m : s_find t k v = None -> a_put t k v m = a_store t k v m.
Proof.
  intro N. unfold a_put, a_store. f_equal.
  induction t as [|[[k0 v0] m0] t IH]; [reflexivity|]. rewrite sf_cons in N. cbn [filter fst snd].
  destruct (lkey_eqb k0 k && (v0 =? v)); [discriminate|]. cbn [negb]. rewrite (IH N). reflexivity.
Qed.

Lemma del_binds_idem m n : del_binds m (del_binds m n) = del_binds m n.
Proof. unfold del_binds. cbn [nkids nbinds]. f_equal. apply filter_all. intros x Hx. now apply filter_In in Hx. Qed.
Lemma del_binds_empty m : del_binds m (Node [] []) = Node [] [].
Proof. reflexivity. Qed.
Lemma fold_del_nodes m reg : forall h x,
  node_at (fold_left (fun hh l => wr hh l (CNode (del_binds m (node_at hh l)))) reg h) x =
  if in_dec Nat.eq_dec x reg then del_binds m (node_at h x) else node_at h x.
Proof.
  induction reg as [|l reg IH]; intros h x; cbn [fold_left]; [reflexivity|].
  rewrite IH. destruct (Nat.eq_dec l x) as [->|N].
  - rewrite node_wr_same. destruct (in_dec Nat.eq_dec x (x :: reg)) as [_|Q]; [|exfalso; apply Q; left; reflexivity].
    destruct (in_dec Nat.eq_dec x reg); [apply del_binds_idem|reflexivity].
  - rewrite node_wr_other by exact N.
    destruct (in_dec Nat.eq_dec x reg) as [I|I]; destruct (in_dec Nat.eq_dec x (l :: reg)) as [J|J]; try reflexivity.
    + exfalso. apply J. right; exact I.
    + destruct J as [J|J]; [congruence|contradiction].
Qed.

Definition amut (t : amap) (mu : mut) : amap :=
  match mu with
  | MAdd labels verb m => a_store t labels verb m
  | MDel m => s_del t m
  | MHandlers _ | MConns _ => t
  end.
(* what a mutation does to the binding list B of the node at q: MAdd conses at its own node, MDel
   filters everywhere, the two map cells are no part of the trie *)
Definition mut_binds (mu : mut) (B : list (nat * method)) (q : lkey) : list (nat * method) :=
  match mu with
  | MAdd l v m => if lkey_eqb l q then (v, m) :: B else B
  | MDel m => filter (fun e => negb (snd e =? m)) B
  | MHandlers _ | MConns _ => B
  end.
Lemma a_at_amut t mu q : a_at (amut t mu) q = mut_binds mu (a_at t q) q.
Proof. destruct mu; cbn [amut mut_binds]; [apply a_at_cons|apply a_at_del|reflexivity|reflexivity]. Qed.

Lemma apply_mut_abs b h s mu h' s' ws : Wf b h s -> apply_mut h s mu = (h', s', ws) ->
  Wf b h' s' /\ forall q, binds_at h' s' q = mut_binds mu (binds_at h s q) q.
Proof.
  intros W E. pose proof W as (O & T & D1 & D2). destruct (apply_mut_spec b h s mu h' s' ws O E) as (O' & _).
  destruct mu as [labels verb m|m|v|v]; cbn [apply_mut mut_binds] in *.
  - destruct (nav_create h s (sroot s) labels) as [[[h1 s1] l] ws1] eqn:N. injection E as <- <- <-.
    destruct (nav_create_abs b labels _ _ _ [] _ _ _ _ W eq_refl N) as ((O1 & T1 & D) & W1 & B1).
    cbn [app] in W1. set (h' := wr h1 l _) in *.
    destruct (walks_ext h1 h' s1 (proj2 O1)) as [WS TS].
    { intros x _. unfold h'. destruct (Nat.eq_dec l x) as [<-|Nx]; [rewrite node_wr_same; reflexivity|rewrite node_wr_other by exact Nx; reflexivity]. }
    split; [exact (conj O' (conj (TS T1) D))|].
    intro q. rewrite <- B1. unfold binds_at. rewrite WS. destruct (lkey_eqb labels q) eqn:Eq.
    + apply lkey_eqb_eq in Eq. subst q. rewrite W1. unfold h'. rewrite node_wr_same. reflexivity.
    + apply lkey_eqb_neq in Eq. destruct (walk h1 (sroot s1) q) as [y|] eqn:Wq; [|reflexivity].
      unfold h'. rewrite node_wr_other; [reflexivity|]. intro Q; subst y. apply Eq. apply (T1 labels q l W1 Wq).
  - injection E as <- <- <-. set (h' := fold_left _ _ h) in *.
    assert (ND : forall x, node_at h' x = if in_dec Nat.eq_dec x (sregion s) then del_binds m (node_at h x) else node_at h x)
      by (intro x; apply fold_del_nodes).
    destruct (walks_ext h h' s (proj2 O)) as [WS TS].
    { intros x _. rewrite ND. destruct (in_dec Nat.eq_dec x (sregion s)); reflexivity. }
    split; [split; [exact O'|split; [exact (TS T)|split; assumption]]|].
    intro q. unfold binds_at. rewrite WS. destruct (walk h (sroot s) q) as [y|] eqn:Wq; [|reflexivity].
    rewrite ND. destruct (in_dec Nat.eq_dec y (sregion s)) as [_|Q]; [reflexivity|].
    destruct (Q (walk_root_region h s q y (proj2 O) Wq)).
  - injection E as <- <- <-. destruct (region_ext h (wr h (shm s) (CHmap v)) s (proj2 O)) as [Bq Tq].
    { intros x Hx. apply node_wr_other. intros <-. exact (D1 Hx). }
    split; [split; [exact O'|split; [exact (Tq T)|split; assumption]]|exact Bq].
  - injection E as <- <- <-. destruct (region_ext h (wr h (scm s) (CCmap v)) s (proj2 O)) as [Bq Tq].
    { intros x Hx. apply node_wr_other. intros <-. exact (D2 Hx). }
    split; [split; [exact O'|split; [exact (Tq T)|split; assumption]]|exact Bq].
Qed.

Lemma apply_mut_exact b h s t mu h' s' ws : Wf b h s -> SExact h s t ->
  apply_mut h s mu = (h', s', ws) -> Wf b h' s' /\ SExact h' s' (amut t mu).
Proof.
  intros W A E. destruct (apply_mut_abs b h s mu h' s' ws W E) as [W' B].
  split; [exact W'|]. intro q. rewrite a_at_amut, B, (A q). reflexivity.
Qed.
(* under the intensional relation MDel is a_del, with no side condition *)
Lemma mdel_exact b h s t m h' s' ws : Wf b h s -> SExact h s t ->
  apply_mut h s (MDel m) = (h', s', ws) -> Wf b h' s' /\ SExact h' s' (s_del t m).
Proof. exact (apply_mut_exact b h s t (MDel m) h' s' ws). Qed.

Theorem madd_refines b h s t labels verb m h' s' ws : Wf b h s -> SAbs h s t ->
  apply_mut h s (MAdd labels verb m) = (h', s', ws) ->
  Wf b h' s' /\ forall t', is_store t labels verb m t' -> SAbs h' s' t'.
Proof.
  intros W A E. destruct (apply_mut_abs b h s _ h' s' ws W E) as [W' B]. cbn [mut_binds] in B.
  split; [exact W'|]. intros t' St q v. rewrite (St q v), snap_find_binds, B.
  destruct (lkey_eqb labels q); cbn [andb aget].
  - destruct (verb =? v); [reflexivity|]. rewrite <- snap_find_binds. apply A.
  - rewrite <- snap_find_binds. apply A.
Qed.
(* against a_add: when the duplicate check lets the rule through and reports a new binding *)
Corollary madd_refines_add b h s t labels verb m h' s' ws t' : Wf b h s -> SAbs h s t ->
  apply_mut h s (MAdd labels verb m) = (h', s', ws) ->
  s_add t (AKey labels verb true) m = Ok (t', true) -> SAbs h' s' t'.
Proof.
  intros W A E Ad. destruct (madd_refines b h s t labels verb m h' s' ws W A E) as [_ S]. apply S.
  destruct (sa_inv _ _ _ _ _ Ad) as (_ & _ & _ & [(Q & _)|(_ & -> & _)]); [discriminate|].
  cbn [ak_node ak_verb]. apply a_store_is_store.
Qed.
Lemma madd_noshadow b h s labels verb m h' s' ws : Wf b h s -> NoShadow h s -> snap_find h s labels verb = None ->
  apply_mut h s (MAdd labels verb m) = (h', s', ws) -> NoShadow h' s'.
Proof.
  intros W N U E. destruct (apply_mut_abs b h s _ h' s' ws W E) as [_ B]. cbn [mut_binds] in B.
  intro q. rewrite B. destruct (lkey_eqb labels q) eqn:Q; [|apply N]. apply lkey_eqb_eq in Q. subst q.
  cbn [map fst]. constructor; [|apply N]. apply aget_none_notin. rewrite <- snap_find_binds. exact U.
Qed.

Lemma aget_filter_nodup (m : method) v (l : list (nat * method)) : NoDup (map fst l) ->
  aget v (filter (fun e => negb (snd e =? m)) l) = odel Nat.eqb m (aget v l).
Proof.
  induction l as [|[a x] l IH]; intro N; [reflexivity|]. cbn [map fst] in N. inversion N as [|y l' Hnotin N']; subst.
  cbn [filter snd aget]. destruct (a =? v) eqn:E.
  - apply Nat.eqb_eq in E. subst a. cbn [odel]. destruct (x =? m); cbn [negb aget]; [|rewrite Nat.eqb_refl; reflexivity].
    rewrite (IH N'). destruct (aget v l) as [x1|] eqn:G; [|reflexivity]. exfalso. apply Hnotin.
    apply in_map_iff. exists (v, x1). split; [reflexivity|apply aget_in; exact G].
  - destruct (x =? m); cbn [negb aget]; [|rewrite E]; apply (IH N').
Qed.
Lemma mdel_noshadow b h s m h' s' ws : Wf b h s -> NoShadow h s ->
  apply_mut h s (MDel m) = (h', s', ws) -> NoShadow h' s'.
Proof.
  intros W N E. destruct (apply_mut_abs b h s _ h' s' ws W E) as [_ B].
  intro q. rewrite B. apply NoDup_map_filter. apply N.
Qed.
(* the extensional relation needs "nothing shadowed" on both sides *)
Theorem mdel_refines b h s t m h' s' ws : Wf b h s -> SAbs h s t -> NoShadow h s -> NoDup (map fst t) ->
  apply_mut h s (MDel m) = (h', s', ws) ->
  Wf b h' s' /\ SAbs h' s' (s_del t m) /\ NoShadow h' s' /\ NoDup (map fst (s_del t m)).
Proof.
  intros W A N Nt E. destruct (apply_mut_abs b h s _ h' s' ws W E) as [W' B]. cbn [mut_binds] in B.
  split; [exact W'|]. split; [|split].
  - intros q v. rewrite (sf_del t m q v Nt), snap_find_binds, B.
    etransitivity; [|symmetry; exact (aget_filter_nodup m v _ (N q))].
    rewrite <- snap_find_binds, (A q v). reflexivity.
  - apply (mdel_noshadow b h s m h' s' ws W N E).
  - apply a_del_nodup. exact Nt.
Qed.

(* well-formedness of the working copy is preserved by every mutation ... *)
Theorem apply_mut_wf b h s mu h' s' ws : Wf b h s -> apply_mut h s mu = (h', s', ws) -> Wf b h' s'.
Proof. intros W E. exact (proj1 (apply_mut_abs b h s mu h' s' ws W E)). Qed.
(* ... and established by clone (of a closed tree, or of the nil state), which also carries the
   intensional relation over *)
Theorem clone_is_working_copy h p h' s' : (forall s, p = Some s -> closed h s /\ tree h s) ->
  clone_snap h p = (h', s') ->
  Wf (next h) h' s' /\
  forall t, match p with Some s => SExact h s t | None => t = [] end -> SExact h' s' t.
Proof.
  intros Hp E. pose proof (clone_disjoint h p) as D. rewrite E in D. cbn [snd] in D.
  destruct (clone_spec h p h' s') as (O & _); [intros s Q; apply (Hp s Q)|exact E|].
  destruct p as [s|].
  - destruct (Hp s eq_refl) as [Cl T]. destruct (clone_some_abs h s h' s' Cl E) as [Bq Tq].
    split; [exact (conj O (conj (Tq T) D))|]. intros t A q. rewrite Bq. apply A.
  - destruct (clone_none_abs h h' s' E) as [Bq Tq].
    split; [exact (conj O (conj Tq D))|]. intros t -> q. rewrite Bq. reflexivity.
Qed.

(* the mutations of the writers that stored, in store order (cur: those of the writer in progress) *)
Fixpoint committed (cur : option (list mut)) (es : list ev) : list mut :=
  match es with
  | [] => []
  | EBegin :: es' => match cur with None => committed (Some []) es' | Some _ => committed cur es' end
  | EMut mu :: es' => match cur with Some ms => committed (Some (ms ++ [mu])) es' | None => committed None es' end
  | EStore :: es' => match cur with Some ms => ms ++ committed None es' | None => committed None es' end
  | EAbort :: es' => committed None es'
  | _ :: es' => committed cur es'
  end.

Definition pub_abs (w : world) (pt : amap) : Prop :=
  match pub w with Some s => tree (hp w) s /\ SExact (hp w) s pt | None => pt = [] end.
(* the writer holding the lock has applied ms to its copy of the published map *)
Definition cur_abs (w : world) (pt : amap) (cm : option (list mut)) : Prop :=
  match cur w, cm with
  | Some ws, Some ms => Wf (wbase ws) (hp w) (wsnap ws) /\ SExact (hp w) (wsnap ws) (fold_left amut ms pt)
  | None, None => True
  | _, _ => False
  end.

Lemma stored_stable w e s t : WI w -> In s (stored w) -> tree (hp w) s /\ SExact (hp w) s t ->
  tree (hp (wstep w e)) s /\ SExact (hp (wstep w e)) s t.
Proof.
  intros I Hs [T A].
  destruct (region_ext (hp w) (hp (wstep w e)) s (wB _ I s Hs) (cells_nodes _ _ _ (stored_region_stable w e s I Hs))) as (Bq & Tq).
  split; [apply Tq; exact T|apply (SExact_ext _ _ s t Bq A)].
Qed.

Lemma pub_abs_same w w' pt : hp w' = hp w -> pub w' = pub w -> pub_abs w pt -> pub_abs w' pt.
Proof. unfold pub_abs. intros -> ->. exact (fun x => x). Qed.

Lemma exec_abs es : forall w pt cm, WI w -> pub_abs w pt -> cur_abs w pt cm ->
  pub_abs (exec w es) (fold_left amut (committed cm es) pt).
Proof.
  induction es as [|e es IH]; intros w pt cm I P C; cbn [exec committed]; [exact P|].
  pose proof (wstep_WI w e I) as I'.
  assert (PS : pub (wstep w e) = pub w -> pub_abs (wstep w e) pt).
  { intro E. unfold pub_abs in *. rewrite E. destruct (pub w) as [s0|] eqn:Pw; [|exact P].
    apply (stored_stable w e s0 pt I (pub_stored w s0 I Pw) P). }
  (* an event the lock discipline refuses changes nothing on either side *)
  assert (NOP : wstep w e = w -> pub_abs (exec (wstep w e) es) (fold_left amut (committed cm es) pt))
    by (intros ->; exact (IH w pt cm I P C)).
  assert (C' := C). unfold cur_abs in C'.
  destruct e as [|mu| | |labels verb|i];
    [| | |exact (IH _ pt None I' (PS eq_refl) Logic.I)|exact (IH _ pt cm I' (PS eq_refl) C)..];
    (destruct (cur w) as [ws|] eqn:Cw; destruct cm as [ms|]; try contradiction;
     try (apply NOP; cbn [wstep]; rewrite Cw; reflexivity)).
  - (* EBegin *)
    apply (IH _ pt (Some []) I' (PS (proj1 (proj2 (wstep_proj w _))))).
    unfold cur_abs. cbn [wstep]. rewrite Cw. destruct (clone_snap (hp w) (pub w)) as [h s] eqn:E.
    destruct (clone_is_working_copy (hp w) (pub w) h s) as [W X]; [|exact E|].
    { intros s0 Pw. split; [exact (pub_closed w I s0 Pw)|]. unfold pub_abs in P. rewrite Pw in P. apply P. }
    split; [exact W|]. apply X. unfold pub_abs in P. destruct (pub w); [apply P|exact P].
  - (* EMut *)
    apply (IH _ pt (Some (ms ++ [mu])) I' (PS (proj1 (proj2 (wstep_proj w _))))).
    unfold cur_abs. cbn [wstep]. rewrite Cw. destruct (apply_mut (hp w) (wsnap ws) mu) as [[h s] wl] eqn:E.
    rewrite fold_left_app. exact (apply_mut_exact _ _ _ _ _ _ _ _ (proj1 C') (proj2 C') E).
  - (* EStore: the working map becomes the published one *)
    rewrite fold_left_app. destruct C' as [(_ & T & _) A].
    apply (IH _ (fold_left amut ms pt) None I'); unfold pub_abs, cur_abs; cbn [wstep]; rewrite Cw; [exact (conj T A)|exact Logic.I].
Qed.

(* the composition with C12: under ANY schedule, the published snapshot denotes the map obtained by
   folding the mutations of the writers that stored, in store order, over the empty map; aborted
   writers and the writer in progress contribute nothing.  MAdd contributes a_store (the store step of
   a_add), MDel contributes a_del. *)
Theorem exec_refines es :
  let w := exec world0 es in
  let t := fold_left amut (committed None es) [] in
  match pub w with
  | Some s => SAbs (hp w) s t /\ SExact (hp w) s t /\ tree (hp w) s
  | None => t = []
  end.
Proof.
  intros w t. pose proof (exec_abs es world0 [] None WI0 eq_refl Logic.I) as P. fold w t in P. unfold pub_abs in P.
  destruct (pub w) as [s|]; [|exact P]. destruct P as [T A]. split; [apply SExact_SAbs; exact A|]. split; assumption.
Qed.

Lemma s_lookup_nil labels verb : s_lookup [] labels verb = None.
Proof. reflexivity. Qed.

(* every route of the published state is the abstract lookup *)
Corollary exec_routes es labels verb :
  let w := exec world0 es in
  route_snap (hp w) (pub w) labels verb = s_lookup (fold_left amut (committed None es) []) labels verb.
Proof.
  intros w. pose proof (exec_refines es) as R. cbv zeta in R. fold w in R.
  destruct (pub w) as [s|]; [apply snap_route_is_lookup; apply R|]. rewrite R. reflexivity.
Qed.

(* a request that loads after es1 is answered by a_lookup of the map published after es1, whatever
   is interleaved afterwards *)
Theorem request_sees_map es1 labels verb es2 :
  let w1 := exec world0 es1 in
  let w2 := exec (wstep w1 (ELoad labels verb)) es2 in
  answer (hp w2) (nth (length (readers w1)) (readers w2) (RDone None)) =
  s_lookup (fold_left amut (committed None es1) []) labels verb.
Proof.
  intros w1 w2. destruct (linearizable es1 labels verb es2) as [L _]. fold w1 w2 in L. rewrite L.
  apply exec_routes.
Qed.

Definition amut_put (t : amap) (mu : mut) : amap :=
  match mu with
  | MAdd labels verb m => a_put t labels verb m
  | MDel m => s_del t m
  | MHandlers _ | MConns _ => t
  end.
(* every MAdd meets an unbound key: what addRule's duplicate check guarantees before it stores *)
Fixpoint guarded (t : amap) (mus : list mut) : Prop :=
  match mus with
  | [] => True
  | mu :: r => match mu with MAdd l v _ => s_find t l v = None | _ => True end /\ guarded (amut t mu) r
  end.
Lemma guarded_put mus : forall t, guarded t mus -> fold_left amut_put mus t = fold_left amut mus t.
Proof.
  induction mus as [|mu r IH]; intros t G; [reflexivity|]. cbn [fold_left]. destruct G as [G1 G2].
  assert (E : amut_put t mu = amut t mu) by (destruct mu; cbn [amut_put amut]; [apply a_put_unbound; exact G1|reflexivity|reflexivity|reflexivity]).
  rewrite E. apply IH. exact G2.
Qed.
Lemma guarded_nodup mus : forall t, NoDup (map fst t) -> guarded t mus -> NoDup (map fst (fold_left amut mus t)).
Proof.
  induction mus as [|mu r IH]; intros t N G; [exact N|]. cbn [fold_left]. destruct G as [G1 G2].
  apply IH; [|exact G2]. destruct mu as [l v m|m|x|x]; cbn [amut]; [|apply a_del_nodup; exact N|exact N|exact N].
  unfold a_store. cbn [map fst]. constructor; [|exact N].
  apply (a_find_none lkey nat nat lkey_eqb Nat.eqb lkey_eqb_eq Nat.eqb_eq t l v G1).
Qed.
Corollary exec_refines_guarded es :
  let w := exec world0 es in
  let ms := committed None es in
  guarded [] ms ->
  let t := fold_left amut_put ms [] in
  NoDup (map fst t) /\ match pub w with Some s => SAbs (hp w) s t | None => t = [] end.
Proof.
  intros w ms G t. unfold t. rewrite (guarded_put ms [] G). split; [apply guarded_nodup; [constructor|exact G]|].
  pose proof (exec_refines es) as R. cbv zeta in R. fold w ms in R. destruct (pub w) as [s|]; [apply R|exact R].
Qed.

(* The extensional relation alone does not make MDel refine a_del: MAdd conses onto the binding list
   of its node, so a second MAdd at a bound key shadows the first binding instead of replacing it, and
   MDel of the newer method uncovers the older one.  (rules.go never gets there: addRule stores only
   when the key is unbound, and methods[verb] = m on a Go map replaces.) *)
Definition rf0 := clone_snap (Heap [] 0) None.
Definition rf1 := apply_mut (fst rf0) (snd rf0) (MAdd [1] 1 7).
Definition rf2 := apply_mut (fst (fst rf1)) (snd (fst rf1)) (MAdd [1] 1 8).
Definition rft : amap := a_put (a_put [] [1] 1 7) [1] 1 8.

Lemma triple_eta {A B C} (x : A * B * C) : x = (fst (fst x), snd (fst x), snd x).
Proof. destruct x as [[a b] c]. reflexivity. Qed.

Lemma rf0_wf : Wf 0 (fst rf0) (snd rf0) /\ SExact (fst rf0) (snd rf0) [].
Proof.
  destruct (clone_is_working_copy (Heap [] 0) None (fst rf0) (snd rf0)) as [W X];
    [intros s [=]|apply surjective_pairing|]. split; [exact W|exact (X [] eq_refl)].
Qed.

Theorem mdel_refines_refuted : exists b h s t m,
  Wf b h s /\ SAbs h s t /\ NoDup (map fst t) /\
  ~ SAbs (fst (fst (apply_mut h s (MDel m)))) (snd (fst (apply_mut h s (MDel m)))) (s_del t m).
Proof.
  exists 0, (fst (fst rf2)), (snd (fst rf2)), rft, 8.
  destruct rf0_wf as [W0 E0].
  destruct (madd_refines 0 _ _ [] [1] 1 7 _ _ _ W0 (SExact_SAbs _ _ _ E0) (triple_eta rf1)) as [W1 A1].
  specialize (A1 _ (a_put_is_store [] [1] 1 7)).
  destruct (madd_refines 0 _ _ _ [1] 1 8 _ _ _ W1 A1 (triple_eta rf2)) as [W2 A2].
  specialize (A2 _ (a_put_is_store _ [1] 1 8)).
  split; [exact W2|]. split; [exact A2|]. split.
  - vm_compute. constructor; [intros []|constructor].
  - intro H. specialize (H [1] 1). vm_compute in H. discriminate.
Qed.

(* hence the run of a schedule does NOT denote the fold with replace-or-insert (a_put) for MAdd when a
   stored writer adds over a bound key and then deletes the newer method: the heap answers 7, the
   replace-or-insert map has nothing at the key.  With a_store (cons) it does: exec_refines; and the
   two folds coincide when every MAdd meets an unbound key: exec_refines_guarded. *)
Definition rf_sched : list ev := [EBegin; EMut (MAdd [1] 1 7); EMut (MAdd [1] 1 8); EMut (MDel 8); EStore].
Theorem exec_refines_put_refuted : exists es,
  let w := exec world0 es in
  exists s, pub w = Some s /\ ~ SAbs (hp w) s (fold_left amut_put (committed None es) []) /\
  route_snap (hp w) (pub w) [1] 1 = Some 7 /\ s_lookup (fold_left amut_put (committed None es) []) [1] 1 = None.
Proof.
  exists rf_sched. cbv zeta. eexists. split; [vm_compute; reflexivity|]. split.
  - intro H. specialize (H [1] 1). vm_compute in H. discriminate.
  - vm_compute. split; reflexivity.
Qed.

(* non-vacuity: two writers and a request in flight *)
Definition ex_es1 : list ev := [EBegin; EMut (MAdd [1; 2] 1 7); EMut (MHandlers [(7, [Handler 0 (OConn 0) 7])]); EStore].
(* the request reads while a second writer deletes method 7, adds a route, and gives up *)
Definition ex_es2 : list ev :=
  [ERead 0; EBegin; EMut (MDel 7); ERead 0; EMut (MAdd [1; 3] 0 8); EAbort; ERead 0; ERead 0].
(* the same, but the second writer stores *)
Definition ex_es2' : list ev :=
  [ERead 0; EBegin; EMut (MDel 7); ERead 0; EMut (MAdd [1; 3] 0 8); EStore; ERead 0; ERead 0].
Example two_writers :
  let w1 := exec world0 ex_es1 in
  let t1 := fold_left amut (committed None ex_es1) [] in
  let w2 := exec (wstep w1 (ELoad [1; 2] 1)) ex_es2 in
  let t2 := fold_left amut (committed None (ex_es1 ++ ELoad [1; 2] 1 :: ex_es2)) [] in
  let w2' := exec (wstep w1 (ELoad [1; 2] 1)) ex_es2' in
  let t2' := fold_left amut (committed None (ex_es1 ++ ELoad [1; 2] 1 :: ex_es2')) [] in
  t1 = [([1; 2], 1, 7)] /\
  t2 = [([1; 2], 1, 7)] /\                                  (* the aborted writer contributes nothing *)
  t2' = [([1; 3], 0, 8)] /\                                 (* the stored one: a_del 7, then the '*' binding *)
  readers w2 = [RDone (Some 7)] /\ readers w2' = [RDone (Some 7)] /\   (* the request in flight: the map at its load *)
  s_lookup t1 [1; 2] 1 = Some 7 /\
  route_snap (hp w2) (pub w2) [1; 3] 5 = None /\ s_lookup t2 [1; 3] 5 = None /\
  route_snap (hp w2') (pub w2') [1; 3] 5 = Some 8 /\ s_lookup t2' [1; 3] 5 = Some 8 /\
  route_snap (hp w2') (pub w2') [1; 2] 1 = None /\ s_lookup t2' [1; 2] 1 = None.
Proof. vm_compute. repeat split; reflexivity. Qed.

Print Assumptions snap_route_is_lookup.
Print Assumptions clone_preserves_abs.
Print Assumptions clone_is_working_copy.
Print Assumptions apply_mut_wf.
Print Assumptions madd_refines.
Print Assumptions madd_refines_add.
Print Assumptions mdel_refines.
Print Assumptions mdel_exact.
Print Assumptions mdel_refines_refuted.
Print Assumptions exec_refines.
Print Assumptions exec_refines_guarded.
Print Assumptions exec_refines_put_refuted.
Print Assumptions request_sees_map.
Print Assumptions two_writers.
