(* Order independence of registration: two accepted orders of the same bindings build tries on
   which every request is routed identically. *)
From Larking Require Import Base.GoSem Model.Lexer Model.Trie Model.Match Spec.Grammar Proofs.LexerProofs Proofs.TrieProofs.
From Coq Require Import Sorting.Sorted Permutation.
Local Open Scope N_scope.

Lemma is_prefix_nil b : is_prefix [] b = true.
Proof. reflexivity. Qed.
Lemma is_prefix_cons x a y b : is_prefix (x :: a) (y :: b) = true <-> x = y /\ is_prefix a b = true.
Proof.
  cbn. destruct (ekey_dec x y) as [E|E]; split; intros H.
  - auto.
  - tauto.
  - discriminate.
  - destruct H; contradiction.
Qed.

Lemma assoc_none_notin {A} k (l : list (str * A)) : assoc k l = None -> ~ In k (map fst l).
Proof.
  induction l as [|[k' v] l IH]; cbn; [tauto|]. destruct (str_eqb k' k) eqn:E; [discriminate|].
  intros H [X|X]; [apply str_eqb_neq in E; contradiction|now apply IH].
Qed.

Definition exists_at (nd : node) (es : list edge) : Prop := walk_to es nd <> None.

Lemma exists_empty es : exists_at empty_node es <-> es = [].
Proof.
  unfold exists_at. split; [|intros ->; discriminate].
  destruct es; [reflexivity|]. intros H. exfalso. apply H, walk_empty. discriminate.
Qed.

(* search looks at a node through its offer, its literal children by key and its variable children
   in order: it agrees on nodes related by a relation that these respect *)
Section SearchExt.
Variable okconv : list str -> str -> bool.
Variable R : node -> node -> Prop.
Hypothesis R_info : forall a b, R a b ->
  (forall key, assoc key (n_meths a) = assoc key (n_meths b)) /\ n_mall a = n_mall b.
Hypothesis R_lit : forall a b key, R a b ->
  match assoc key (n_segs a), assoc key (n_segs b) with Some c1, Some c2 => R c1 c2 | None, None => True | _, _ => False end.
Hypothesis R_vars : forall a b, R a b -> Forall2 (fun x y => fst x = fst y /\ R (snd x) (snd y)) (n_vars a) (n_vars b).

Lemma try_vars_ext rec1 rec2 tl : (forall a b z, R a b -> rec1 a z = rec2 b z) -> forall vs1 vs2,
  Forall2 (fun x y => fst x = fst y /\ R (snd x) (snd y)) vs1 vs2 ->
  try_vars okconv rec1 tl vs1 = try_vars okconv rec2 tl vs2.
Proof.
  intros Hrec. induction 1 as [|[p1 c1] [p2 c2] vs1 vs2 [E HR] HF IH]; cbn [try_vars]; auto.
  cbn in E, HR. subst p2. destruct (var_index p1 tl) as [[[c z]|]| | |]; auto.
  rewrite (Hrec c1 c2 z HR). destruct (rec2 c2 z) as [[m ps]| | |]; auto.
Qed.

Lemma search_ext verb fuel : forall a b toks, R a b -> search okconv fuel verb a toks = search okconv fuel verb b toks.
Proof.
  induction fuel as [|f IH]; intros a b toks HR; [reflexivity|].
  cbn [search]. unfold search_body. destruct (R_info a b HR) as [Hm Ha].
  destruct toks as [|t0 [|t1 rest]]; [unfold pick; rewrite Hm, Ha; reflexivity..|].
  rewrite (try_vars_ext _ (search okconv f verb) (t1 :: rest) (fun a b z => IH a b z) _ _ (R_vars a b HR)).
  pose proof (R_lit a b (tval t0 ++ tval t1) HR) as Hl.
  destruct (assoc _ (n_segs a)) as [c1|], (assoc _ (n_segs b)) as [c2|]; try contradiction; [|reflexivity].
  rewrite (IH c1 c2 rest Hl). reflexivity.
Qed.
End SearchExt.

Section Order.
Variables isLetter isNumber : N -> bool.
Variable resolves body_ok resp_ok : str -> list str -> bool.
Variable okconv : list str -> str -> bool.
Hypothesis sane : Sane isLetter isNumber.

Notation PatG := (PatG isLetter isNumber).
Notation edge_gram := (edge_gram isLetter isNumber).
Notation Inv := (Inv isLetter isNumber resolves).
Notation compiled := (compiled isLetter isNumber resolves).
Notation add_binding := (add_binding resolves body_ok resp_ok isLetter isNumber).
Notation leaf := (leaf resolves body_ok resp_ok).

Definition mk_of (x : str * brule) (vfs : list (list str)) : minfo :=
  Build_minfo (fst x) vfs (b_body (snd x)) (b_resp (snd x)).

(* x is registered at the node the edges es lead to, under the verb key *)
Definition at_node (L : regs) (es : list edge) (key : str) (m : minfo) : Prop :=
  exists x es_b vfs, In x L /\ compiled (fst x) (snd x) es_b vfs /\ keys es_b = keys es /\ b_verb (snd x) = key /\ m = mk_of x vfs.

(* no two different registered bindings sit at the same node under the same verb *)
Definition Distinct (L : regs) : Prop :=
  forall x y ex vx ey vy, In x L -> In y L -> compiled (fst x) (snd x) ex vx -> compiled (fst y) (snd y) ey vy ->
    keys ex = keys ey -> b_verb (snd x) = b_verb (snd y) -> x = y.

(* the exact content of a built trie, in terms of the list of registered bindings *)
Record InvX (L : regs) (root : node) : Prop := {
  invx_inv : Inv L root;
  invx_dom : forall es, exists_at root es <->
      es = [] \/ exists x es_b vfs, In x L /\ compiled (fst x) (snd x) es_b vfs /\ is_prefix (keys es) (keys es_b) = true;
  invx_info : forall es i key m, info_at root es = Some i -> (stored i key m <-> at_node L es key m);
  invx_nodup : forall es i, info_at root es = Some i -> NoDup (map fst (fst i))
}.

Lemma InvX_empty : InvX [] empty_node.
Proof.
  constructor.
  - apply Inv_empty.
  - intros es. rewrite exists_empty. split; [auto|]. intros [H|(x & _ & _ & [] & _)]. exact H.
  - intros es i key m H. apply info_at_empty in H. subst i. split.
    + intros Hs. now apply stored_empty in Hs.
    + intros (x & _ & _ & [] & _).
  - intros es i H. apply info_at_empty in H. subst i. constructor.
Qed.

Lemma leaf_nodup mid b vfs nd nd' :
  Trie.leaf resolves body_ok resp_ok mid b vfs nd = Ok nd' -> NoDup (map fst (n_meths nd)) -> NoDup (map fst (n_meths nd')).
Proof.
  intros H Hn. apply leaf_inv in H. destruct H as (_ & _ & [y Hs Hy|Hv Hm|Hv Ha]); cbn [n_meths]; auto.
  rewrite map_app. apply NoDup_snoc; auto. now apply assoc_none_notin.
Qed.

Lemma stored_fun i key m m' : assoc star_verb (fst i) = None -> stored i key m -> stored i key m' -> m = m'.
Proof.
  intros Hn [[E A]|A] [[E' B]|B]; subst; try congruence.
Qed.

(* without a "*" entry among the verbs, what is stored determines the offer *)
Lemma stored_incl i1 i2 : assoc star_verb (fst i1) = None -> assoc star_verb (fst i2) = None ->
  (forall key m, stored i1 key m -> stored i2 key m) ->
  (forall key m, assoc key (fst i1) = Some m -> assoc key (fst i2) = Some m) /\ (forall m, snd i1 = Some m -> snd i2 = Some m).
Proof.
  intros N1 N2 H. split.
  - intros key m E. destruct (H key m (or_intror E)) as [[-> _]|E2]; [congruence|exact E2].
  - intros m E. destruct (H star_verb m (or_introl (conj eq_refl E))) as [[_ E2]|E2]; [exact E2|congruence].
Qed.
Lemma option_incl_eq {A} (a b : option A) :
  (forall x, a = Some x -> b = Some x) -> (forall x, b = Some x -> a = Some x) -> a = b.
Proof. intros H1 H2. destruct a as [x|]; [symmetry; now apply H1|]. destruct b as [y|]; [now apply H2|reflexivity]. Qed.

Lemma is_prefix_app a b : is_prefix a (a ++ b) = true.
Proof. induction a as [|x a IH]; cbn; auto. destruct (ekey_dec x x); [exact IH|contradiction]. Qed.
Lemma is_prefix_refl a : is_prefix a a = true.
Proof. rewrite <- (app_nil_r a) at 2. apply is_prefix_app. Qed.
Lemma is_prefix_eq_len a : forall b, is_prefix a b = true -> length a = length b -> a = b.
Proof.
  induction a as [|x a IH]; intros [|y b] H Hl; cbn in *; try discriminate; auto.
  destruct (ekey_dec x y); [|discriminate]. subst. f_equal. apply IH; auto.
Qed.

Lemma invx_info_leaf L root es key m : InvX L root -> (stored (info (leaf_of root es)) key m <-> at_node L es key m).
Proof.
  intros HX. rewrite stored_at. split.
  - intros (i & Ei & Hs). now apply (invx_info _ _ HX es i key m Ei).
  - intros Ha. assert (Hex : exists_at root es).
    { destruct Ha as (x & eb & vb & A & B & C & _). apply (invx_dom _ _ HX). right. exists x, eb, vb.
      split; [exact A|]. split; [exact B|]. rewrite C. apply is_prefix_refl. }
    unfold exists_at in Hex. destruct (walk_to es root) as [n|] eqn:Ew; [|contradiction].
    apply info_at_walk in Ew. exists (info n). split; [exact Ew|]. now apply (invx_info _ _ HX es _ key m Ew).
Qed.
Lemma invx_nodup_leaf L root es : InvX L root -> NoDup (map fst (n_meths (leaf_of root es))).
Proof.
  intros HX. pose proof (invx_nodup _ _ HX es) as X. unfold info_at, leaf_of in *.
  destruct (walk_to es root); [exact (X _ eq_refl)|constructor].
Qed.

Lemma at_node_cons x L es key m : at_node L es key m -> at_node (x :: L) es key m.
Proof. intros (y & eb & vb & A & R). exists y, eb, vb. split; [now right|exact R]. Qed.

Theorem InvX_step L root mid b root' :
  InvX L root -> Distinct ((mid, b) :: L) -> add_binding mid root b = Ok root' -> InvX ((mid, b) :: L) root'.
Proof.
  intros HX HD H.
  pose proof (Inv_step isLetter isNumber resolves body_ok resp_ok L root mid b root' (invx_inv _ _ HX) H) as HI'.
  destruct (add_binding_ok isLetter isNumber resolves body_ok resp_ok _ _ _ _ H) as (es0 & vfs & l & Hc & Hl & ->).
  pose proof (leaf_keeps resolves body_ok resp_ok _ _ _ _ _ Hl) as Hk.
  destruct (leaf_spec_at resolves body_ok resp_ok _ _ _ _ _ root Hl) as (S1 & S2 & S3).
  constructor; [exact HI'| | |].
  - intros es. unfold exists_at. rewrite (exists_set_at _ _ _ es Hk). fold (exists_at root es). rewrite (invx_dom _ _ HX). split.
    + intros [[E|(x & eb & vb & A & B & C)]|P]; auto.
      * right. exists x, eb, vb. split; [now right|auto].
      * right. exists (mid, b), es0, vfs. split; [now left|auto].
    + intros [E|(x & eb & vb & [A|A] & B & C)]; auto.
      * subst x. destruct (compiled_fun _ _ _ _ _ _ _ _ _ B Hc) as [-> ->]. right. exact C.
      * left. right. exists x, eb, vb. auto.
  - intros es i key m Hinfo. rewrite (info_leaf_of _ _ _ Hinfo). split.
    + intros Hs. destruct (S1 es key m Hs) as [Hs0|(Ek & -> & ->)].
      * now apply at_node_cons, (invx_info_leaf _ _ _ _ _ HX).
      * exists (mid, b), es0, vfs. split; [now left|]. auto.
    + intros (x & eb & vb & [A|A] & B & C & D & E).
      * (* the binding just registered: what the leaf serves under its verb is it, for otherwise an
           earlier binding would sit at the same node under the same verb *)
        subst x. cbn [fst snd] in B, D. destruct (compiled_fun _ _ _ _ _ _ _ _ _ B Hc) as [-> ->]. subst key m.
        rewrite (leaf_of_keys _ es es0 (eq_sym C)). destruct S3 as (m0 & Hs0 & _).
        destruct (S1 es0 _ m0 Hs0) as [Hold|(_ & _ & ->)]; [|exact Hs0].
        apply (invx_info_leaf _ _ _ _ _ HX) in Hold. destruct Hold as (y & ey & vy & A' & B' & C' & D' & ->).
        assert (y = (mid, b)) by (apply (HD y (mid, b) ey vy es0 vfs); [now right|now left|exact B'|exact Hc|exact C'|exact D']).
        subst y. destruct (compiled_fun _ _ _ _ _ _ _ _ _ B' Hc) as [_ ->]. exact Hs0.
      * apply S2, (invx_info_leaf _ _ _ _ _ HX). exists x, eb, vb. auto.
  - intros es i Hinfo. rewrite (info_leaf_of _ _ _ Hinfo), (info_set_at _ _ _ es Hk).
    destruct (list_eq_dec _ _ _); [apply (leaf_nodup _ _ _ _ _ Hl)|]; now apply (invx_nodup_leaf L).
Qed.

Lemma walk_to_app a : forall b nd, walk_to (a ++ b) nd = match walk_to a nd with Some n => walk_to b n | None => None end.
Proof.
  induction a as [|e a IH]; intros b nd; [reflexivity|]. cbn [app]. rewrite !walk_cons.
  destruct (child_at e nd); auto.
Qed.

Lemma sorted_same (l1 : list str) : forall l2,
  StronglySorted (fun a b => str_ltb a b = true) l1 -> StronglySorted (fun a b => str_ltb a b = true) l2 ->
  (forall x, In x l1 <-> In x l2) -> l1 = l2.
Proof.
  induction l1 as [|a l1 IH]; intros [|b l2] S1 S2 Hin; auto.
  - exfalso. apply (Hin b). now left.
  - exfalso. apply (Hin a). now left.
  - apply StronglySorted_inv in S1, S2. destruct S1 as [S1 A1], S2 as [S2 A2]. rewrite Forall_forall in A1, A2.
    assert (a = b).
    { destruct (proj1 (Hin a) (or_introl eq_refl)) as [E|E]; [auto|].
      destruct (proj2 (Hin b) (or_introl eq_refl)) as [E'|E']; [auto|].
      pose proof (str_ltb_trans _ _ _ (A2 a E) (A1 b E')) as Z. now rewrite str_ltb_irrefl in Z. }
    subst b. f_equal. apply IH; auto.
    (* the head is below its tail, so not in it *)
    intros x. split; intros Hx.
    + destruct (proj1 (Hin x) (or_intror Hx)) as [<-|E]; [|exact E]. pose proof (A1 a Hx) as X. now rewrite str_ltb_irrefl in X.
    + destruct (proj2 (Hin x) (or_intror Hx)) as [<-|E]; [|exact E]. pose proof (A2 a Hx) as X. now rewrite str_ltb_irrefl in X.
Qed.

Lemma find_var_some_iff name l : find_var name l <> None <-> In name (map vname l).
Proof.
  induction l as [|[p n] l IH]; cbn; [split; [intros H; now apply H|intros []]|].
  unfold vname at 1. cbn [fst]. destruct (str_eqb (spell p) name) eqn:E.
  - apply str_eqb_eq in E. split; [intros _; now left|intros _; discriminate].
  - rewrite IH. split; [intros H; now right|]. intros [H|H]; [|exact H]. apply str_eqb_neq in E. contradiction.
Qed.

Lemma Forall2_names (R : list token * node -> list token * node -> Prop) u1 : forall u2,
  map vname u1 = map vname u2 ->
  (forall x y, In x u1 -> In y u2 -> vname x = vname y -> R x y) -> Forall2 R u1 u2.
Proof.
  induction u1 as [|x u1 IH]; intros [|y u2] Hn HR; try discriminate; constructor; cbn [map] in Hn.
  - injection Hn as Hxy _. apply HR; [now left|now left|exact Hxy].
  - injection Hn as _ Hn. apply IH; [exact Hn|]. intros a b Ha Hb. apply HR; now right.
Qed.

Section Same.
Variables (L1 L2 : regs) (r1 r2 : node).
Hypothesis HX1 : InvX L1 r1.
Hypothesis HX2 : InvX L2 r2.
Hypothesis Hmem : forall x, In x L1 <-> In x L2.

Lemma same_dom es : exists_at r1 es <-> exists_at r2 es.
Proof.
  rewrite (invx_dom _ _ HX1), (invx_dom _ _ HX2). split; (intros [E|(x & eb & vb & A & B)]; [now left|right; exists x, eb, vb; split; [apply Hmem; exact A|exact B]]).
Qed.

Lemma same_at es key m : at_node L1 es key m <-> at_node L2 es key m.
Proof. split; intros (x & eb & vb & A & B); exists x, eb, vb; (split; [apply Hmem; exact A|exact B]). Qed.

(* the nodes of the two tries that the same edges lead to *)
Definition twin (nd1 nd2 : node) : Prop := exists es, walk_to es r1 = Some nd1 /\ walk_to es r2 = Some nd2.

Lemma twin_info nd1 nd2 : twin nd1 nd2 ->
  (forall key, assoc key (n_meths nd1) = assoc key (n_meths nd2)) /\ n_mall nd1 = n_mall nd2.
Proof.
  intros (es & W1 & W2). apply info_at_walk in W1, W2.
  pose proof (inv_nostar _ _ _ _ _ (invx_inv _ _ HX1) es _ W1) as N1.
  pose proof (inv_nostar _ _ _ _ _ (invx_inv _ _ HX2) es _ W2) as N2.
  assert (Hst : forall key m, stored (info nd1) key m <-> stored (info nd2) key m).
  { intros key m. rewrite (invx_info _ _ HX1 es _ key m W1), (invx_info _ _ HX2 es _ key m W2). apply same_at. }
  destruct (stored_incl (info nd1) (info nd2) N1 N2 (fun k m => proj1 (Hst k m))) as [A1 B1].
  destruct (stored_incl (info nd2) (info nd1) N2 N1 (fun k m => proj2 (Hst k m))) as [A2 B2].
  split; [intros key; apply option_incl_eq; [apply A1|apply A2]|apply option_incl_eq; [apply B1|apply B2]].
Qed.

Lemma twin_child nd1 nd2 e : twin nd1 nd2 ->
  match child_at e nd1, child_at e nd2 with Some c1, Some c2 => twin c1 c2 | None, None => True | _, _ => False end.
Proof.
  intros (es & W1 & W2). pose proof (same_dom (es ++ [e])) as D. unfold exists_at in D.
  rewrite !walk_to_app, W1, W2, !walk_cons in D.
  destruct (child_at e nd1) as [c1|] eqn:E1, (child_at e nd2) as [c2|] eqn:E2.
  - exists (es ++ [e]). rewrite !walk_to_app, W1, W2, !walk_cons, E1, E2. auto.
  - apply (proj1 D); [discriminate|reflexivity].
  - apply (proj2 D); [discriminate|reflexivity].
  - exact I.
Qed.

(* variables: sorted by name and with the same names, so the same patterns in the same order *)
Lemma twin_vars nd1 nd2 : twin nd1 nd2 ->
  Forall2 (fun x y => fst x = fst y /\ twin (snd x) (snd y)) (n_vars nd1) (n_vars nd2).
Proof.
  intros HT. pose proof HT as (es & W1 & W2).
  destruct (proj1 (WFn_inv _ _ _) (walk_WFn PatG es r1 0%nat nd1 (inv_wf _ _ _ _ _ (invx_inv _ _ HX1)) W1)) as (_ & B1 & C1 & _).
  destruct (proj1 (WFn_inv _ _ _) (walk_WFn PatG es r2 0%nat nd2 (inv_wf _ _ _ _ _ (invx_inv _ _ HX2)) W2)) as (_ & B2 & C2 & _).
  apply Forall2_names.
  - apply sorted_same; auto. intros n. rewrite <- !find_var_some_iff.
    pose proof (twin_child nd1 nd2 (EVar [Tok TLiteral n]) HT) as T. cbn [child_at] in T. rewrite spell_lit in T.
    destruct (find_var n (n_vars nd1)), (find_var n (n_vars nd2)); [split; discriminate|contradiction..|reflexivity].
  - intros [p1 c1] [p2 c2] I1 I2 Hp.
    destruct (B1 p1 c1 I1) as [[b1 G1] _]. destruct (B2 p2 c2 I2) as [[b2 G2] _].
    pose proof (PSegs_spell_inj isLetter isNumber sane p1 b1 G1 p2 b2 G2 Hp). subst p2.
    split; [reflexivity|]. pose proof (twin_child nd1 nd2 (EVar p1) HT) as T. cbn [child_at] in T.
    rewrite (sorted_find p1 c1 _ C1 I1), (sorted_find p1 c2 _ C2 I2) in T. exact T.
Qed.

Theorem search_same verb fuel : forall es0 nd1 nd2 toks,
  walk_to es0 r1 = Some nd1 -> walk_to es0 r2 = Some nd2 ->
  search okconv fuel verb nd1 toks = search okconv fuel verb nd2 toks.
Proof.
  intros es0 nd1 nd2 toks W1 W2. apply (search_ext okconv twin twin_info); [| |exists es0; auto].
  - intros a b key. exact (twin_child a b (ELit key)).
  - exact twin_vars.
Qed.
End Same.

Theorem route_same L1 L2 r1 r2 verb p :
  InvX L1 r1 -> InvX L2 r2 -> (forall x, In x L1 <-> In x L2) ->
  route okconv isLetter isNumber r1 verb p = route okconv isLetter isNumber r2 verb p.
Proof.
  intros H1 H2 Hm. unfold Match.route. destruct (lex_path isLetter isNumber (normalise p)); auto.
  apply (search_same L1 L2 r1 r2 H1 H2 Hm verb _ []); reflexivity.
Qed.

(* registering a list of bindings, in list order *)
Fixpoint build_from (root : node) (l : regs) : outcome node :=
  match l with
  | [] => Ok root
  | x :: r => do r1 <- add_binding (fst x) root (snd x); build_from r1 r
  end.

Lemma Distinct_sub L L' : (forall x, In x L' -> In x L) -> Distinct L -> Distinct L'.
Proof. intros Hs HD x y ex vx ey vy Hx Hy. apply HD; auto. Qed.

Lemma build_InvX l : forall L0 root r,
  InvX L0 root -> Distinct (rev l ++ L0) -> build_from root l = Ok r -> InvX (rev l ++ L0) r.
Proof.
  induction l as [|[mid b] l IH]; intros L0 root r HX HD H; cbn in H.
  - inversion H; subst. exact HX.
  - destruct (add_binding mid root b) as [r1| | |] eqn:E1; try discriminate. cbn [bind] in H.
    cbn [rev]. rewrite <- app_assoc. cbn [app].
    cbn [rev] in HD. rewrite <- app_assoc in HD. cbn [app] in HD.
    apply (IH ((mid, b) :: L0) r1 r); auto.
    apply (InvX_step L0 root mid b r1 HX); [|exact E1]. eapply Distinct_sub; [|exact HD]. intros x Hx. apply in_or_app. now right.
Qed.

Lemma built_InvX l r : Distinct l -> build_from empty_node l = Ok r -> InvX (rev l) r.
Proof.
  intros HD H. rewrite <- (app_nil_r (rev l)). apply (build_InvX l [] empty_node r InvX_empty); [|exact H].
  rewrite app_nil_r. eapply Distinct_sub; [|exact HD]. intros x Hx. now apply in_rev.
Qed.

(* order independence: two accepted registration orders of the same (pairwise distinct) bindings
   route every request identically *)
Theorem order_independent l1 l2 r1 r2 :
  Permutation l1 l2 -> Distinct l1 ->
  build_from empty_node l1 = Ok r1 -> build_from empty_node l2 = Ok r2 ->
  forall verb p, route okconv isLetter isNumber r1 verb p = route okconv isLetter isNumber r2 verb p.
Proof.
  intros HP HD B1 B2 verb p.
  assert (HD2 : Distinct l2) by (eapply Distinct_sub; [|exact HD]; intros x; apply Permutation_in, Permutation_sym, HP).
  apply (route_same _ _ r1 r2 verb p (built_InvX l1 r1 HD B1) (built_InvX l2 r2 HD2 B2)).
  intros x. rewrite <- !in_rev. split; apply Permutation_in; [exact HP|apply Permutation_sym, HP].
Qed.

End Order.
