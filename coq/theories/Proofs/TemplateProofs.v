(* The string-level specification of templates (Spec/Template.v: parse_tmpl, which splits text) and the
   token-level one (Spec/Grammar.v: the grammar Tmpl; Model/Lexer.v: lex_template) accept the same
   templates and give them the same structure (Spec/TemplateAbs.v: AbsT). *)
From Larking Require Import Base.GoSem Model.Lexer Spec.Grammar Spec.Template Spec.TemplateAbs Proofs.LexerProofs.
Local Open Scope N_scope.

Lemma sstr_eqb_eq a b : sstr_eqb a b = true <-> a = b.
Proof. apply bytes_eqb_eq. Qed.
Lemma sstr_eqb_refl a : sstr_eqb a a = true.
Proof. apply bytes_eqb_refl. Qed.

(* [free bad s]: none of the runes of [bad] occurs in [s]. Every set used below is a tail of
   [46; 61; 58; 123; 125] (what a field path avoids) or of [47; 58; 123; 125] (what a plain piece avoids):
   a smaller set is reached by [free_tl], a single rune by [free_hd]. *)
Definition free (bad : list N) (s : sstr) : Prop := forall x, In x s -> ~ In x bad.

Lemma free_nil bad : free bad [].
Proof. intros x []. Qed.
Lemma free_app bad a b : free bad (a ++ b) <-> free bad a /\ free bad b.
Proof.
  split.
  - intros H. split; intros x Hx; apply H; apply in_or_app; auto.
  - intros [Ha Hb] x Hx. apply in_app_or in Hx. destruct Hx; auto.
Qed.
Lemma free_cons bad x a : free bad (x :: a) <-> ~ In x bad /\ free bad a.
Proof.
  split.
  - intros H. split; [apply H; now left|intros y Hy; apply H; now right].
  - intros [Hx Ha] y [<-|Hy]; auto.
Qed.
Lemma free_hd c bad s : free (c :: bad) s -> ~ In c s.
Proof. intros H Hc. exact (H c Hc (or_introl eq_refl)). Qed.
Lemma free_tl c bad s : free (c :: bad) s -> free bad s.
Proof. intros H x Hx Hb. exact (H x Hx (or_intror Hb)). Qed.
Lemma existsb_false_notin c (bad : list N) : existsb (N.eqb c) bad = false -> ~ In c bad.
Proof. intros H Hin. apply existsb_eqb_In in Hin. congruence. Qed.

Lemma join_cons c a parts : parts <> [] -> join c (a :: parts) = a ++ c :: join c parts.
Proof. destruct parts as [|h t]; [contradiction|]. intros _. reflexivity. Qed.
Lemma join_one c a : join c [a] = a.
Proof. cbn. apply app_nil_r. Qed.

Lemma free_join bad c parts : ~ In c bad -> Forall (free bad) parts -> free bad (join c parts).
Proof.
  intros Hc H. induction H as [|a parts Ha H IH]; [apply free_nil|].
  destruct parts as [|h t].
  - now rewrite join_one.
  - rewrite join_cons by discriminate. apply free_app. split; [exact Ha|]. apply free_cons. auto.
Qed.

Lemma cut_spec c s a b : cut c s = (a, b) -> match b with Some r => s = a ++ c :: r | None => s = a end.
Proof.
  revert a b. induction s as [|x s IH]; intros a b H; cbn in H.
  - inversion H; subst. reflexivity.
  - destruct (N.eqb_spec x c) as [->|Hne].
    + inversion H; subst. reflexivity.
    + destruct (cut c s) as [a' b'] eqn:E. inversion H; subst. specialize (IH a' b eq_refl).
      destruct b as [r|]; rewrite IH; reflexivity.
Qed.
Lemma cut_none c s : ~ In c s -> cut c s = (s, None).
Proof.
  induction s as [|x s IH]; intros H; cbn; [reflexivity|].
  destruct (N.eqb_spec x c) as [->|Hne]; [exfalso; apply H; now left|].
  rewrite IH; [reflexivity|]. intros Hi. apply H. now right.
Qed.
Lemma cut_some c a b : ~ In c a -> cut c (a ++ c :: b) = (a, Some b).
Proof.
  induction a as [|x a IH]; intros H; cbn.
  - now rewrite N.eqb_refl.
  - destruct (N.eqb_spec x c) as [->|Hne]; [exfalso; apply H; now left|].
    rewrite IH; [reflexivity|]. intros Hi. apply H. now right.
Qed.

Lemma split_on_nonnil c s : split_on c s <> [].
Proof.
  destruct s as [|x s]; cbn; [discriminate|].
  destruct (split_on c s) as [|h t]; [discriminate|]. destruct (x =? c); discriminate.
Qed.
Lemma split_on_join c s : join c (split_on c s) = s.
Proof.
  induction s as [|x s IH]; [reflexivity|]. cbn [split_on].
  destruct (split_on c s) as [|h t] eqn:E.
  - cbn in IH. subst s. reflexivity.
  - destruct (N.eqb_spec x c) as [->|Hne].
    + rewrite join_cons by discriminate. now rewrite IH.
    + cbn in IH |- *. now rewrite IH.
Qed.
Lemma split_on_app c a rest : ~ In c a ->
  split_on c (a ++ rest) = (a ++ hd [] (split_on c rest)) :: tl (split_on c rest).
Proof.
  induction a as [|x a IH]; intros H.
  - cbn [app]. pose proof (split_on_nonnil c rest) as Hn. destruct (split_on c rest); [contradiction|reflexivity].
  - cbn [app split_on]. rewrite IH by (intros Hi; apply H; now right).
    destruct (N.eqb_spec x c) as [->|Hne]; [exfalso; apply H; now left|reflexivity].
Qed.
Lemma split_on_seps c t : Forall (fun p => ~ In c p) t -> split_on c (flat_map (fun x => c :: x) t) = [] :: t.
Proof.
  induction 1 as [|a t Ha H IH]; [reflexivity|].
  change (flat_map (fun x => c :: x) (a :: t)) with (c :: a ++ flat_map (fun x => c :: x) t). cbn [split_on].
  rewrite split_on_app by exact Ha. rewrite IH. cbn [hd tl]. rewrite app_nil_r, N.eqb_refl. reflexivity.
Qed.
Lemma split_on_of_join c parts : parts <> [] -> Forall (fun p => ~ In c p) parts -> split_on c (join c parts) = parts.
Proof.
  intros Hn H. destruct H as [|a t Ha H]; [contradiction|]. cbn [join].
  rewrite split_on_app by exact Ha. rewrite split_on_seps by exact H. cbn [hd tl]. now rewrite app_nil_r.
Qed.

Lemma split_top_join s : forall d parts, split_top d s = Some parts -> join 47 parts = s /\ parts <> [].
Proof.
  induction s as [|x s IH]; intros d parts H; cbn [split_top] in H.
  - destruct d; [discriminate|]. inversion H; subst. split; [reflexivity|discriminate].
  - assert (Hgen : forall d', match split_top d' s with Some (h :: t) => Some ((x :: h) :: t) | _ => None end = Some parts ->
                     join 47 parts = x :: s /\ parts <> []).
    { intros d' H'. destruct (split_top d' s) as [[|h t]|] eqn:E; try discriminate.
      inversion H'; subst. destruct (IH _ _ E) as [IH1 _]. split; [|discriminate].
      cbn in IH1 |- *. now rewrite IH1. }
    destruct (x =? 123) eqn:E1; [destruct d; [discriminate|now apply (Hgen true)]|].
    destruct (x =? 125) eqn:E2; [destruct d; [now apply (Hgen false)|discriminate]|].
    destruct ((x =? 47) && negb d) eqn:E3; [|now apply (Hgen d)].
    apply andb_true_iff in E3. destruct E3 as [E3 _]. apply N.eqb_eq in E3. subst x.
    destruct (split_top false s) as [l|] eqn:E; [|discriminate]. inversion H; subst.
    destruct (IH _ _ E) as [IH1 IH2]. split; [|discriminate].
    rewrite join_cons by exact IH2. now rewrite IH1.
Qed.

(* a run of runes that are no braces (and, outside braces, no "/") stays in the current piece *)
Lemma split_top_run d a rest : free [123; 125] a -> (d = false -> ~ In 47 a) ->
  split_top d (a ++ rest) = match split_top d rest with Some (h :: t) => Some ((a ++ h) :: t) | _ => None end.
Proof.
  induction a as [|x a IH]; intros Hf Hs.
  - cbn [app]. destruct (split_top d rest) as [[|h t]|] eqn:E; try reflexivity.
    exfalso. apply split_top_join in E. destruct E as [_ E]. now apply E.
  - apply free_cons in Hf. destruct Hf as [Hx Hf]. cbn [app split_top].
    destruct (N.eqb_spec x 123) as [->|H1]; [exfalso; apply Hx; cbn; auto|].
    destruct (N.eqb_spec x 125) as [->|H2]; [exfalso; apply Hx; cbn; auto|].
    assert (E3 : (x =? 47) && negb d = false).
    { destruct d; [apply andb_false_r|]. rewrite andb_true_r. apply N.eqb_neq. intros ->. apply (Hs eq_refl). now left. }
    rewrite E3. rewrite IH; [|exact Hf|intros Hd Hi; apply (Hs Hd); now right].
    destruct (split_top d rest) as [[|h t]|]; reflexivity.
Qed.

(* a top-level piece: no "/", ":" or brace at all, or one "{...}" with no ":" and no brace inside *)
Definition Top (a : sstr) : Prop :=
  free [47; 58; 123; 125] a \/ exists inner, a = 123 :: inner ++ [125] /\ free [58; 123; 125] inner.

Lemma Top_nocolon a : Top a -> free [58] a.
Proof.
  intros H x Hx [<-|[]]. revert Hx. destruct H as [Hf|(inner & -> & Hf)].
  - exact (free_hd _ _ _ (free_tl _ _ _ Hf)).
  - intros [E|Hx]; [discriminate E|]. apply in_app_or in Hx.
    destruct Hx as [Hx|[E|[]]]; [exact (free_hd _ _ _ Hf Hx)|discriminate E].
Qed.

Lemma split_top_piece a rest : Top a ->
  split_top false (a ++ rest) = match split_top false rest with Some (h :: t) => Some ((a ++ h) :: t) | _ => None end.
Proof.
  intros [Hf|(inner & -> & Hf)].
  - apply split_top_run; [exact (free_tl _ _ _ (free_tl _ _ _ Hf))|intros _; exact (free_hd _ _ _ Hf)].
  - cbn [app]. rewrite <- app_assoc. cbn [split_top]. change (123 =? 123) with true. cbv iota.
    rewrite split_top_run; [|exact (free_tl _ _ _ Hf)|discriminate]. cbn [app split_top].
    change (125 =? 123) with false. change (125 =? 125) with true. cbv iota.
    destruct (split_top false rest) as [[|h t]|]; try reflexivity.
    rewrite <- app_assoc. reflexivity.
Qed.
Lemma split_top_seps t : Forall Top t -> split_top false (flat_map (fun x => 47 :: x) t) = Some ([] :: t).
Proof.
  induction 1 as [|a t Ha H IH]; [reflexivity|].
  change (flat_map (fun x => 47 :: x) (a :: t)) with (47 :: a ++ flat_map (fun x => 47 :: x) t).
  cbn [split_top]. change (47 =? 123) with false. change (47 =? 125) with false. change (47 =? 47) with true. cbn [andb negb].
  cbv iota. rewrite split_top_piece by exact Ha. rewrite IH. now rewrite app_nil_r.
Qed.
Lemma split_top_of_join parts : parts <> [] -> Forall Top parts -> split_top false (join 47 parts) = Some parts.
Proof.
  intros Hn H. destruct H as [|a t Ha H]; [contradiction|]. cbn [join].
  rewrite split_top_piece by exact Ha. rewrite split_top_seps by exact H. now rewrite app_nil_r.
Qed.

Lemma map_opt_Forall2 {A B} (f : A -> option B) l r : map_opt f l = Some r <-> Forall2 (fun a b => f a = Some b) l r.
Proof.
  revert r. induction l as [|x l IH]; intros r; cbn.
  - split; intros H; inversion H; subst; [constructor|reflexivity].
  - split.
    + intros H. destruct (f x) as [y|] eqn:Ex; [|discriminate]. destruct (map_opt f l) as [ys|] eqn:El; [|discriminate].
      inversion H; subst. constructor; [exact Ex|]. now apply IH.
    + intros H. inversion H as [|? y ? ys Hx Hl]; subst. rewrite Hx. apply IH in Hl. now rewrite Hl.
Qed.
Lemma map_opt_nil {A B} (f : A -> option B) l : map_opt f l = Some [] -> l = [].
Proof. destruct l as [|x l]; [reflexivity|]. cbn. destruct (f x), (map_opt f l); discriminate. Qed.

(* "only the last segment may be a double star" *)
Definition is_ss (p : pseg) : bool := match p with PStarStar => true | _ => false end.
Fixpoint ends_ss (l : list pseg) : bool :=
  match l with [] => false | p :: r => if is_nil r then is_ss p else ends_ss r end.
Definition noss (l : list pseg) : bool := forallb (fun p => negb (is_ss p)) l.

Lemma noss_spec l : noss l = starstar_last l && negb (ends_ss l).
Proof.
  induction l as [|p r IH]; [reflexivity|].
  cbn [noss forallb starstar_last ends_ss]. fold (noss r). rewrite IH.
  destruct p; cbn [is_ss negb andb]; destruct r as [|q r']; cbn [is_nil]; try reflexivity.
Qed.
Lemma ssl_app l1 l2 : l2 <> [] -> starstar_last (l1 ++ l2) = noss l1 && starstar_last l2.
Proof.
  intros Hn. induction l1 as [|p l1 IH]; [reflexivity|].
  cbn [app starstar_last noss forallb]. fold (noss l1).
  destruct p; cbn [is_ss negb andb]; try exact IH.
  destruct (l1 ++ l2) eqn:E; [|reflexivity]. apply app_eq_nil in E. destruct E as [_ E]. contradiction.
Qed.
Lemma ends_ss_app l1 l2 : l2 <> [] -> ends_ss (l1 ++ l2) = ends_ss l2.
Proof.
  intros Hn. induction l1 as [|p l1 IH]; [reflexivity|].
  cbn [app ends_ss]. destruct (l1 ++ l2) eqn:E; [apply app_eq_nil in E; destruct E as [_ E]; contradiction|].
  cbn [is_nil]. exact IH.
Qed.

(* what a derivation says of the pattern it renders: not empty, a double star only at its end, and [b] tells whether *)
Definition shape (l : list pseg) (b : bool) : Prop := starstar_last l = true /\ ends_ss l = b /\ l <> [].
Lemma shape_one p : shape [p] (is_ss p).
Proof. split; [destruct p; reflexivity|split; [reflexivity|discriminate]]. Qed.
Lemma shape_app l1 l2 b : shape l1 false -> shape l2 b -> shape (l1 ++ l2) b.
Proof.
  intros (A1 & A2 & A3) (B1 & B2 & B3). split; [|split].
  - rewrite ssl_app, noss_spec, A1, A2 by exact B3. exact B1.
  - now rewrite ends_ss_app.
  - destruct l1; [contradiction|discriminate].
Qed.

Lemma flat_map_one {A} (l : list A) : flat_map (fun x => [x]) l = l.
Proof. induction l as [|x l IH]; [reflexivity|]. cbn. now rewrite IH. Qed.

(* S { "/" S } for a segment shape S, at both levels (the segments of a template, those of a variable) *)
Section Gen.
Context {X E : Type}.
Variable parse : sstr -> option X.            (* the parser of one element's text *)
Variable el : X -> E.                         (* the element it yields *)
Variable cost : X -> nat.                     (* and the tokens the lexer spends on it *)
Variable pl : E -> list pseg.                 (* the plain segments an element contributes to [flat] *)
Variable SG : list token -> bool -> Prop.     (* the grammar of one element *)
Variable AbsE : list token -> E -> Prop.

Definition toksum (xs : list X) : nat := fold_right Nat.add 0%nat (map cost xs).

(* [Q]: what the splitter needs to know about one element's text *)
Lemma segsG_to_parser (Q : sstr -> Prop) :
  (forall ts b, SG ts b -> exists x, shape (pl (el x)) b /\ parse (spell ts) = Some x /\ length ts = cost x /\
      AbsE ts (el x) /\ Q (spell ts)) ->
  forall ss b, SegsG SG ss b ->
  exists parts xs, shape (flat_map pl (map el xs)) b /\ spell ss = join 47 parts /\ parts <> [] /\
    map_opt parse parts = Some xs /\ Forall Q parts /\ AbsL AbsE ss (map el xs) /\
    (length ss + 1 = length xs + toksum xs)%nat.
Proof.
  intros HA ss b HS. induction HS as [ts b G|ts rest b G HS IH].
  - destruct (HA ts b G) as (x & A0 & A1 & A2 & A3 & A4).
    exists [spell ts], [x]. rewrite join_one. cbn [map_opt map flat_map]. rewrite A1, app_nil_r.
    split; [exact A0|]. repeat split; auto; try discriminate.
    + constructor. exact A3.
    + unfold toksum. cbn. clear - A2. lia.
  - destruct (HA ts false G) as (x & A0 & A1 & A2 & A3 & A4).
    destruct IH as (parts & xs & B0 & B1 & B2 & B3 & B4 & B5 & B8).
    exists (spell ts :: parts), (x :: xs).
    rewrite join_cons by exact B2. rewrite spell_sep, B1. cbn [map_opt map flat_map]. rewrite A1, B3.
    split; [now apply shape_app|]. repeat split; auto; try discriminate.
    + constructor; assumption.
    + rewrite app_length. unfold toksum in *. cbn [length map fold_right]. clear - A2 B8. lia.
Qed.

Lemma segsG_to_grammar :
  (forall s x, parse s = Some x -> pl (el x) <> [] /\
     (starstar_last (pl (el x)) = true ->
      exists ts, SG ts (ends_ss (pl (el x))) /\ spell ts = s /\ length ts = cost x /\ AbsE ts (el x))) ->
  forall parts xs, map_opt parse parts = Some xs -> xs <> [] -> starstar_last (flat_map pl (map el xs)) = true ->
  exists ss, SegsG SG ss (ends_ss (flat_map pl (map el xs))) /\ spell ss = join 47 parts /\
    (length ss + 1 = length xs + toksum xs)%nat /\ AbsL AbsE ss (map el xs).
Proof.
  intros HB parts xs HF. apply map_opt_Forall2 in HF.
  induction HF as [|s x parts xs HP HF IH]; intros Hn Hss; [contradiction|].
  destruct (HB s x HP) as [He1 He2]. cbn [map flat_map] in *.
  destruct xs as [|x' xs'].
  - inversion HF; subst. cbn [map flat_map] in *. rewrite app_nil_r in *.
    destruct (He2 Hss) as (ts & C1 & C2 & C3 & C4).
    exists ts. rewrite join_one. split; [now apply Ss_one|]. split; [exact C2|]. split; [unfold toksum; cbn; clear - C3; lia|].
    constructor. exact C4.
  - assert (Hfn : flat_map pl (map el (x' :: xs')) <> []).
    { inversion HF as [|s' ? ps' ? HP' HF']; subst.
      destruct (HB s' x' HP') as [He' _]. cbn [map flat_map].
      intros E0. apply app_eq_nil in E0. destruct E0 as [E0 _]. contradiction. }
    rewrite ssl_app in Hss by exact Hfn. apply andb_true_iff in Hss. destruct Hss as [Hno Hss].
    rewrite noss_spec in Hno. apply andb_true_iff in Hno. destruct Hno as [Hs1 Hs2]. apply negb_true_iff in Hs2.
    destruct (He2 Hs1) as (ts & C1 & C2 & C3 & C4). rewrite Hs2 in C1.
    destruct (IH ltac:(discriminate) Hss) as (ss & D1 & D2 & D3 & D4).
    assert (Hpn : parts <> []) by (intros ->; inversion HF).
    exists (ts ++ tSlash :: ss). rewrite ends_ss_app by exact Hfn.
    split; [now apply Ss_cons|]. split.
    + rewrite join_cons by exact Hpn. now rewrite spell_sep, C2, D2.
    + split; [|now constructor].
      rewrite app_length. unfold toksum in *. cbn [length map fold_right] in *. clear - C3 D3. lia.
Qed.
End Gen.

Lemma toksum_ones {X} (xs : list X) : toksum (fun _ => 1%nat) xs = length xs.
Proof. induction xs as [|x xs IH]; [reflexivity|]. unfold toksum in *. cbn [map fold_right length]. now rewrite IH. Qed.

Section TemplateProofs.
Variables isLetter isNumber : N -> bool.
Notation is_ident := (is_ident isLetter isNumber).
Notation is_literal := (is_literal isLetter isNumber).
Notation s_ident := (s_ident isLetter isNumber).
Notation s_literal := (s_literal isLetter isNumber).
Notation PSeg := (PSeg isLetter isNumber).
Notation PSegs := (PSegs isLetter isNumber).
Notation Seg := (Seg isLetter isNumber).
Notation Segs := (Segs isLetter isNumber).
Notation FieldPath := (FieldPath isLetter isNumber).
Notation parse_pseg := (parse_pseg isLetter isNumber).
Notation parse_tseg := (parse_tseg isLetter isNumber).
Notation parse_tmpl := (parse_tmpl isLetter isNumber).
Notation lit_ok := (lit_ok isLetter isNumber).
Notation ident_ok := (ident_ok isLetter isNumber).

(* the character classes of the two specifications are the same functions *)
Lemma s_ident_eq r : s_ident r = is_ident r.
Proof. reflexivity. Qed.
Lemma s_literal_eq r : s_literal r = is_literal r.
Proof. reflexivity. Qed.
Lemma s_path_eq r : s_path isLetter isNumber r = is_path isLetter isNumber r.
Proof.
  unfold s_path, is_path. cbn [existsb]. rewrite orb_false_r. rewrite !orb_assoc. reflexivity.
Qed.

Definition pl (s : tseg) : list pseg := match s with TPlain p => [p] | TVar _ ps => ps end.
Lemma flat_pl t : flat t = flat_map pl (t_segs t).
Proof. reflexivity. Qed.

(* parse_tseg without the literal patterns 123 / 125 *)
Definition parse_plain (s : sstr) : option (tseg * nat) :=
  match parse_pseg s with Some p => Some (TPlain p, 1%nat) | None => None end.
Definition parse_inner (inner : sstr) : option (tseg * nat) :=
  let '(fp, pat) := cut 61 inner in
  let keys := split_on 46 fp in
  if forallb (nonempty_all s_ident) keys then
    match pat with
    | None => Some (TVar keys [PStar], 2 * length keys + 1)%nat
    | Some p => match map_opt parse_pseg (split_on 47 p) with
                | Some ps => Some (TVar keys ps, 2 * length keys + 1 + 2 * length ps)%nat
                | None => None end
    end
  else None.
Definition parse_var (r : sstr) : option (tseg * nat) :=
  match rev r with
  | [] => None
  | y :: ri => if y =? 125 then parse_inner (rev ri) else None
  end.

Lemma parse_tseg_eq s :
  parse_tseg s = match hd_is 123 s with Some r => parse_var r | None => parse_plain s end.
Proof.
  unfold Template.parse_tseg, parse_var, parse_inner, parse_plain, hd_is.
  destruct s as [|x r]; [reflexivity|]. destruct x as [|p]; [reflexivity|].
  do 7 (destruct p as [p|p|]; try reflexivity). cbn [N.eqb Pos.eqb].
  destruct (rev r) as [|y ri]; [reflexivity|]. destruct y as [|q]; [reflexivity|].
  do 7 (destruct q as [q|q|]; try reflexivity).
Qed.
Lemma parse_var_snoc inner : parse_var (inner ++ [125]) = parse_inner inner.
Proof. unfold parse_var. rewrite rev_app_distr. cbn [rev app]. change (125 =? 125) with true. cbv iota. now rewrite rev_involutive. Qed.
Lemma parse_var_inv r en : parse_var r = Some en -> exists inner, r = inner ++ [125] /\ parse_inner inner = Some en.
Proof.
  unfold parse_var. destruct (rev r) as [|y ri] eqn:E; [discriminate|].
  destruct (N.eqb_spec y 125) as [->|]; [|discriminate]. intros H. exists (rev ri). split; [|exact H].
  rewrite <- (rev_involutive r), E. reflexivity.
Qed.

Lemma parse_tmpl_hd s :
  parse_tmpl s = match s with [] => None | x :: rest => if x =? 47 then parse_tmpl (47 :: rest) else None end.
Proof.
  destruct s as [|x r]; [reflexivity|]. destruct x as [|p]; [reflexivity|].
  do 6 (destruct p as [p|p|]; try reflexivity).
Qed.

Definition finish (verb : option sstr) (segs : list (tseg * nat)) : option tmpl :=
  let t := {| t_segs := map fst segs; t_verb := verb |} in
  let ntok := (length segs + fold_right Nat.add 0 (map snd segs) + (match verb with Some _ => 2 | None => 0 end) + 1)%nat in
  if starstar_last (flat t) && Nat.leb ntok 64 then Some t else None.
Lemma parse_tmpl_47 rest segpart verb : cut 58 rest = (segpart, verb) ->
  parse_tmpl (47 :: rest) =
  if (match verb with None => true | Some v => nonempty_all s_literal v end) then
    match split_top false segpart with
    | Some parts => match map_opt parse_tseg parts with Some segs => finish verb segs | None => None end
    | None => None
    end
  else None.
Proof. intros H. unfold Template.parse_tmpl, finish. cbv iota beta. rewrite H. reflexivity. Qed.

(* what the text parser accepts is a derivation of the grammar *)
Lemma pseg_to_grammar s p : parse_pseg s = Some p ->
  exists ts, PSeg ts (is_ss p) /\ spell ts = s /\ length ts = 1%nat /\ AbsP ts p.
Proof.
  unfold Template.parse_pseg.
  destruct (sstr_eqb s [42]) eqn:E1.
  { apply sstr_eqb_eq in E1. subst s. intros H. inversion H; subst p. exists [tStar]. repeat split; constructor. }
  destruct (sstr_eqb s [42; 42]) eqn:E2.
  { apply sstr_eqb_eq in E2. subst s. intros H. inversion H; subst p. exists [tStarStar]. repeat split; constructor. }
  destruct (literal_ok isLetter isNumber s) eqn:E3; [|discriminate].
  intros H. inversion H; subst p. exists [Tok TLiteral s]. split; [constructor; exact E3|].
  split; [apply spell_one|]. split; [reflexivity|constructor].
Qed.

Lemma psegs_to_grammar parts ps : map_opt parse_pseg parts = Some ps -> ps <> [] -> starstar_last ps = true ->
  exists ts, PSegs ts (ends_ss ps) /\ spell ts = join 47 parts /\ (length ts + 1 = 2 * length ps)%nat /\ AbsPs ts ps.
Proof.
  intros H Hn Hss.
  destruct (segsG_to_grammar parse_pseg (fun p => p) (fun _ => 1%nat) (fun p => [p]) PSeg AbsP) with (2 := H) as (ts & A & B & C & D).
  - intros s p Hp. split; [discriminate|]. intros _. exact (pseg_to_grammar s p Hp).
  - exact Hn.
  - now rewrite map_id, flat_map_one.
  - rewrite map_id, ?flat_map_one, ?toksum_ones in *. exists ts. repeat split; auto. clear - C. lia.
Qed.

Lemma fp_to_grammar keys : keys <> [] -> forallb (nonempty_all s_ident) keys = true ->
  exists fp, FieldPath fp /\ spell fp = join 46 keys /\ AbsFP fp keys /\ (length fp + 1 = 2 * length keys)%nat.
Proof.
  induction keys as [|k keys IH]; intros Hn H; [contradiction|].
  cbn [forallb] in H. apply andb_true_iff in H. destruct H as [Hk H].
  destruct keys as [|k' keys'].
  - exists [Tok TIdent k]. split; [constructor; exact Hk|]. rewrite join_one, spell_one.
    repeat split. constructor.
  - destruct (IH ltac:(discriminate) H) as (fp & A & B & C & D).
    exists (Tok TIdent k :: tDot :: fp). split; [constructor; [exact Hk|exact A]|].
    rewrite join_cons by discriminate. change (spell (Tok TIdent k :: tDot :: fp)) with (k ++ 46 :: spell fp).
    rewrite B. split; [reflexivity|]. split; [now constructor|]. cbn [length] in *. lia.
Qed.

Lemma seg_to_grammar s x : parse_tseg s = Some x ->
  pl (fst x) <> [] /\
  (starstar_last (pl (fst x)) = true ->
   exists ts, Seg ts (ends_ss (pl (fst x))) /\ spell ts = s /\ length ts = snd x /\ AbsSeg ts (fst x)).
Proof.
  rewrite parse_tseg_eq. destruct (hd_is 123 s) as [r|] eqn:Eh; intros H.
  2:{ unfold parse_plain in H. destruct (parse_pseg s) as [p|] eqn:Ep; [|discriminate]. inversion H; subst x.
      split; [discriminate|]. intros _. destruct (pseg_to_grammar _ _ Ep) as (ts & T1 & T2 & T3 & T4).
      exists ts. repeat split; auto; now constructor. }
  apply hd_is_some in Eh. subst s.
  destruct (parse_var_inv _ _ H) as (inner & -> & Hi). clear H. unfold parse_inner in Hi.
  destruct (cut 61 inner) as [fp pat] eqn:Ec. apply cut_spec in Ec.
  destruct (forallb (nonempty_all s_ident) (split_on 46 fp)) eqn:Ek; [|discriminate].
  destruct (fp_to_grammar _ (split_on_nonnil 46 fp) Ek) as (fpt & F1 & F2 & F3 & F4). rewrite split_on_join in F2.
  destruct pat as [p|].
  - destruct (map_opt parse_pseg (split_on 47 p)) as [ps|] eqn:Ep; [|discriminate]. inversion Hi; subst x. clear Hi.
    assert (Hps : ps <> []).
    { intros ->. exact (split_on_nonnil _ _ (map_opt_nil _ _ Ep)). }
    cbn [pl fst snd]. split; [exact Hps|]. intros Hss.
    destruct (psegs_to_grammar _ _ Ep Hps Hss) as (pt & P1 & P2 & P3 & P4). rewrite split_on_join in P2.
    exists (tOpen :: fpt ++ tEq :: pt ++ [tClose]). split; [now apply S_varpat|].
    split; [now rewrite spell_varpat, F2, P2, Ec|]. split; [rewrite length_varpat; lia|now apply AS_varpat].
  - inversion Hi; subst x. clear Hi. cbn [pl fst snd]. split; [discriminate|]. intros _. subst inner.
    exists (tOpen :: fpt ++ [tClose]). split; [now apply S_var|].
    split; [now rewrite spell_var, F2|]. split; [rewrite length_var; lia|now apply AS_var].
Qed.

Lemma segs_to_grammar parts segs verb t : map_opt parse_tseg parts = Some segs -> parts <> [] -> finish verb segs = Some t ->
  exists ss b, Segs ss b /\ spell ss = join 47 parts /\ AbsSegs ss (t_segs t) /\ t_verb t = verb /\
    (length ss + match verb with Some _ => 4 | None => 2 end <= 64)%nat.
Proof.
  intros Em Hpn. unfold finish. rewrite flat_pl. cbn [t_segs].
  destruct (starstar_last (flat_map pl (map fst segs))) eqn:Ess; [|discriminate]. cbn [andb].
  destruct (Nat.leb _ 64) eqn:En; [|discriminate]. apply Nat.leb_le in En. intros H. inversion H; subst t. clear H.
  assert (Hsn : segs <> []) by (intros ->; exact (Hpn (map_opt_nil _ _ Em))).
  destruct (segsG_to_grammar parse_tseg fst snd pl Seg AbsSeg seg_to_grammar parts segs Em Hsn Ess) as (ss & A & B & C & D).
  exists ss, (ends_ss (flat_map pl (map fst segs))). repeat split; auto.
  unfold toksum in C. destruct verb; lia.
Qed.

(* every derivation of the grammar is accepted by the text parser *)
Section Sane.
Hypothesis sane : Sane isLetter isNumber.

Lemma lit_free v : forallb is_literal v = true -> free [47; 58; 123; 125] v.
Proof.
  intros H x Hx Hb. rewrite forallb_forall in H. specialize (H x Hx).
  rewrite (sane_literal isLetter isNumber sane x) in H; [discriminate|].
  destruct Hb as [<-|[<-|[<-|[<-|[]]]]]; cbn; auto 7.
Qed.
Lemma ident_free v : forallb is_ident v = true -> free [46; 61; 58; 123; 125] v.
Proof.
  intros H x Hx Hb. rewrite forallb_forall in H. specialize (H x Hx).
  rewrite (sane_ident isLetter isNumber sane x) in H; [discriminate|].
  destruct Hb as [<-|[<-|[<-|[<-|[<-|[]]]]]]; cbn; auto 8.
Qed.

Lemma pseg_to_parser ts b : PSeg ts b ->
  exists p, shape [p] b /\ parse_pseg (spell ts) = Some p /\ length ts = 1%nat /\ AbsP ts p /\
            free [47; 58; 123; 125] (spell ts).
Proof.
  intros [v Hv| |].
  - exists (PLit v). rewrite spell_one.
    destruct (lit_ok_inv isLetter isNumber _ Hv) as (x & v' & Ev & Hx & Hp).
    assert (Hx42 : x <> 42) by (intros ->; rewrite (sane_letter isLetter isNumber sane 42) in Hx; [discriminate|now left]).
    split; [apply (shape_one (PLit v))|]. split; [|repeat split; [constructor|exact (lit_free _ Hp)]].
    unfold Template.parse_pseg.
    destruct (sstr_eqb v [42]) eqn:E1; [apply sstr_eqb_eq in E1; congruence|].
    destruct (sstr_eqb v [42; 42]) eqn:E2; [apply sstr_eqb_eq in E2; congruence|].
    change (literal_ok isLetter isNumber v) with (lit_ok v). now rewrite Hv.
  - exists PStar. split; [apply (shape_one PStar)|]. repeat split; [constructor|]. intros x [<-|[]]. now apply existsb_false_notin.
  - exists PStarStar. split; [apply (shape_one PStarStar)|]. repeat split; [constructor|].
    intros x [<-|[<-|[]]]; now apply existsb_false_notin.
Qed.

Lemma psegs_to_parser ps b : PSegs ps b ->
  exists parts pp, shape pp b /\ spell ps = join 47 parts /\ parts <> [] /\ map_opt parse_pseg parts = Some pp /\
    Forall (free [47; 58; 123; 125]) parts /\ AbsPs ps pp /\ (length ps + 1 = 2 * length pp)%nat.
Proof.
  intros HS.
  destruct (segsG_to_parser parse_pseg (fun p => p) (fun _ => 1%nat) (fun p => [p]) PSeg AbsP (free [47; 58; 123; 125])
              pseg_to_parser ps b HS) as (parts & pp & A0 & A1 & A2 & A3 & A4 & A5 & A8).
  rewrite map_id, ?flat_map_one, ?toksum_ones in *. exists parts, pp. repeat split; auto; [apply A0..|clear - A8; lia].
Qed.

Lemma fp_to_parser fp : FieldPath fp ->
  exists keys, AbsFP fp keys /\ spell fp = join 46 keys /\ keys <> [] /\
    forallb (nonempty_all s_ident) keys = true /\ Forall (fun k => ~ In 46 k) keys /\
    (length fp + 1 = 2 * length keys)%nat /\ free [61; 58; 123; 125] (spell fp).
Proof.
  assert (Hk : forall v, ident_ok v = true -> ~ In 46 v /\ free [61; 58; 123; 125] v).
  { intros v Hv. destruct (ident_ok_inv isLetter isNumber _ Hv) as [_ Hp]. pose proof (ident_free _ Hp) as Hf.
    split; [exact (free_hd _ _ _ Hf)|exact (free_tl _ _ _ Hf)]. }
  induction 1 as [v Hv|v rest Hv Hf (keys & A1 & A2 & A3 & A4 & A5 & A6 & A7)]; destruct (Hk v Hv) as [K1 K2].
  - exists [v]. rewrite spell_one, join_one. cbn [forallb]. change (nonempty_all s_ident v) with (ident_ok v). rewrite Hv.
    repeat split; auto; try discriminate. constructor.
  - exists (v :: keys).
    change (spell (Tok TIdent v :: tDot :: rest)) with (v ++ 46 :: spell rest).
    rewrite join_cons by exact A3. rewrite A2. cbn [forallb]. change (nonempty_all s_ident v) with (ident_ok v). rewrite Hv, A4.
    repeat split; auto; try discriminate.
    + now constructor.
    + cbn [length] in *. lia.
    + apply free_app. split; [exact K2|]. apply free_cons. split; [now apply existsb_false_notin|now rewrite <- A2].
Qed.

Lemma seg_to_parser ts b : Seg ts b ->
  exists x, shape (pl (fst x)) b /\ parse_tseg (spell ts) = Some x /\ length ts = snd x /\ AbsSeg ts (fst x) /\
    Top (spell ts).
Proof.
  intros [ts' b' G|fp Hfp|fp ps b' Hfp Hps].
  - destruct (pseg_to_parser _ _ G) as (p & P0 & P1 & P2 & P3 & P4). exists (TPlain p, 1%nat). cbn [fst snd pl].
    split; [exact P0|]. split; [|repeat split; [exact P2|now constructor|now left]].
    rewrite parse_tseg_eq. unfold parse_plain. rewrite P1.
    destruct (hd_is 123 (spell ts')) as [r|] eqn:Eh; [|reflexivity]. apply hd_is_some in Eh.
    exfalso. apply (P4 123); [rewrite Eh; now left|cbn; auto].
  - destruct (fp_to_parser _ Hfp) as (keys & A1 & A2 & A3 & A4 & A5 & A6 & A7).
    exists (TVar keys [PStar], 2 * length keys + 1)%nat. cbn [fst snd pl]. rewrite spell_var, length_var.
    split; [apply (shape_one PStar)|]. split; [|repeat split; [lia|now constructor|]].
    + rewrite parse_tseg_eq, hd_is_cons, parse_var_snoc. unfold parse_inner.
      rewrite cut_none by exact (free_hd _ _ _ A7).
      rewrite A2, split_on_of_join by assumption. now rewrite A4.
    + right. exists (spell fp). split; [reflexivity|exact (free_tl _ _ _ A7)].
  - destruct (fp_to_parser _ Hfp) as (keys & A1 & A2 & A3 & A4 & A5 & A6 & A7).
    destruct (psegs_to_parser _ _ Hps) as (parts & pp & B0 & B1 & B2 & B3 & B4 & B5 & B8).
    exists (TVar keys pp, 2 * length keys + 1 + 2 * length pp)%nat. cbn [fst snd pl]. rewrite spell_varpat, length_varpat.
    split; [exact B0|]. split; [|repeat split; [clear - A6 B8; lia|now constructor|]].
    + rewrite parse_tseg_eq, hd_is_cons, parse_var_snoc. unfold parse_inner.
      rewrite cut_some by exact (free_hd _ _ _ A7).
      rewrite A2, split_on_of_join by assumption. rewrite A4.
      rewrite B1, split_on_of_join; [now rewrite B3|exact B2|].
      exact (Forall_impl _ (free_hd 47 _) B4).
    + right. exists (spell fp ++ 61 :: spell ps). split; [reflexivity|].
      apply free_app. split; [exact (free_tl _ _ _ A7)|]. apply free_cons. split; [now apply existsb_false_notin|].
      rewrite B1. apply free_join; [now apply existsb_false_notin|].
      exact (Forall_impl _ (free_tl 47 _) B4).
Qed.

Lemma segs_to_parser ss b verb : Segs ss b -> (length ss + match verb with Some _ => 4 | None => 2 end <= 64)%nat ->
  exists sl, AbsSegs ss sl /\ ~ In 58 (spell ss) /\
    match split_top false (spell ss) with
    | Some parts => match map_opt parse_tseg parts with Some segs => finish verb segs | None => None end
    | None => None
    end = Some {| t_segs := sl; t_verb := verb |}.
Proof.
  intros HS Hl.
  destruct (segsG_to_parser parse_tseg fst snd pl Seg AbsSeg Top seg_to_parser ss b HS) as (parts & segs & [A6 _] & A1 & A2 & A3 & A4 & A5 & A8).
  exists (map fst segs). split; [exact A5|]. rewrite A1. split.
  - apply (free_hd 58 []), free_join; [now apply existsb_false_notin|]. exact (Forall_impl _ Top_nocolon A4).
  - rewrite split_top_of_join, A3 by assumption. unfold finish. rewrite flat_pl. cbn [t_segs]. rewrite A6. cbn [andb].
    destruct (Nat.leb _ 64) eqn:En; [reflexivity|]. apply Nat.leb_gt in En. unfold toksum in A8. clear - A8 En Hl. destruct verb; lia.
Qed.

End Sane.
End TemplateProofs.

(* every derivation of at most 64 tokens spells a text the parser accepts, with that structure *)
Theorem template_grammar_to_parser : forall isLetter isNumber, Sane isLetter isNumber ->
  forall toks, Tmpl isLetter isNumber toks -> (length toks <= 64)%nat ->
  exists t, parse_tmpl isLetter isNumber (spell toks) = Some t /\ AbsT toks t.
Proof.
  intros isLetter isNumber sane toks HT Hl.
  destruct HT as [ss b HS|ss b v HS Hv]; rewrite length_tmpl in Hl; cbn [length] in Hl.
  - destruct (segs_to_parser isLetter isNumber sane ss b None HS) as (sl & A1 & A2 & A3); [lia|].
    exists {| t_segs := sl; t_verb := None |}. split; [|now constructor].
    rewrite spell_tmpl_plain, (parse_tmpl_47 _ _ _ (spell ss) None) by now apply cut_none. exact A3.
  - destruct (segs_to_parser isLetter isNumber sane ss b (Some v) HS) as (sl & A1 & A2 & A3); [lia|].
    exists {| t_segs := sl; t_verb := Some v |}. split; [|now constructor].
    rewrite spell_tmpl_verb, (parse_tmpl_47 _ _ _ (spell ss) (Some v)) by now apply cut_some.
    change (nonempty_all (s_literal isLetter isNumber) v) with (verb_ok isLetter isNumber v). rewrite Hv. exact A3.
Qed.
Print Assumptions template_grammar_to_parser.

(* every text the parser accepts is spelled by a derivation of the grammar of at most
   64 tokens which has the structure the parser reports; holds for every classifier *)
Theorem template_parser_to_grammar : forall isLetter isNumber s t,
  parse_tmpl isLetter isNumber s = Some t ->
  exists toks, Tmpl isLetter isNumber toks /\ spell toks = s /\ (length toks <= 64)%nat /\ AbsT toks t.
Proof.
  intros isLetter isNumber s t. rewrite parse_tmpl_hd. destruct s as [|x rest]; [discriminate|].
  destruct (N.eqb_spec x 47) as [->|]; [|discriminate].
  destruct (cut 58 rest) as [segpart verb] eqn:Ec. rewrite (parse_tmpl_47 _ _ _ _ _ Ec). apply cut_spec in Ec.
  destruct (match verb with None => true | Some v => _ end) eqn:Ev; [|discriminate].
  destruct (split_top false segpart) as [parts|] eqn:Es; [|discriminate].
  destruct (map_opt _ parts) as [segs|] eqn:Em; [|discriminate].
  intros H. apply split_top_join in Es. destruct Es as [Es Hpn].
  destruct (segs_to_grammar isLetter isNumber parts segs verb t Em Hpn H) as (ss & b & A & B & C & D & F).
  destruct t as [sl verb']. cbn [t_segs t_verb] in C, D. subst verb'. rewrite Es in B.
  destruct verb as [v|].
  - exists (tSlash :: ss ++ [tColon; Tok TLiteral v; tEOF]). split; [exact (T_verb _ _ ss b v A Ev)|].
    split; [now rewrite spell_tmpl_verb, B, Ec|]. split; [rewrite length_tmpl; exact F|now constructor].
  - exists (tSlash :: ss ++ [tEOF]). split; [exact (T_plain _ _ ss b A)|].
    split; [now rewrite spell_tmpl_plain, B, Ec|]. split; [rewrite length_tmpl; exact F|now constructor].
Qed.
Print Assumptions template_parser_to_grammar.

(* the oracle and the lexer model accept the same texts; the lexer's tokens (unique: lex_template is
   a function) render the oracle's template (unique: parse_tmpl is a function) *)
Theorem template_oracle_agrees_with_lexer : forall isLetter isNumber, Sane isLetter isNumber -> forall s,
  (forall t, parse_tmpl isLetter isNumber s = Some t ->
     exists toks, lex_template isLetter isNumber s = Ok toks /\ AbsT toks t) /\
  (forall toks, lex_template isLetter isNumber s = Ok toks ->
     exists t, parse_tmpl isLetter isNumber s = Some t /\ AbsT toks t).
Proof.
  intros isLetter isNumber sane s. split.
  - intros t H. destruct (template_parser_to_grammar _ _ s t H) as (toks & A & B & C & D).
    exists toks. split; [|exact D]. rewrite <- B. now apply lex_template_complete.
  - intros toks H. destruct (lex_template_sound isLetter isNumber s toks H) as (A & B & C).
    rewrite <- B. now apply template_grammar_to_parser.
Qed.
Print Assumptions template_oracle_agrees_with_lexer.

Corollary template_oracle_accepts_iff_lexer : forall isLetter isNumber, Sane isLetter isNumber -> forall s,
  (exists t, parse_tmpl isLetter isNumber s = Some t) <-> (exists toks, lex_template isLetter isNumber s = Ok toks).
Proof.
  intros isLetter isNumber sane s. destruct (template_oracle_agrees_with_lexer isLetter isNumber sane s) as [A B]. split.
  - intros [t H]. destruct (A t H) as (toks & H1 & _). now exists toks.
  - intros [toks H]. destruct (B toks H) as (t & H1 & _). now exists t.
Qed.
Print Assumptions template_oracle_accepts_iff_lexer.

(* both at once, for a given text: whenever either side accepts, both do and the results are related *)
Corollary template_oracle_lexer_related : forall isLetter isNumber, Sane isLetter isNumber -> forall s t toks,
  parse_tmpl isLetter isNumber s = Some t -> lex_template isLetter isNumber s = Ok toks -> AbsT toks t.
Proof.
  intros isLetter isNumber sane s t toks Hp Hl.
  destruct (template_oracle_agrees_with_lexer isLetter isNumber sane s) as [A _].
  destruct (A t Hp) as (toks' & Hl' & Habs). rewrite Hl in Hl'. inversion Hl'; subst. exact Habs.
Qed.
Print Assumptions template_oracle_lexer_related.
