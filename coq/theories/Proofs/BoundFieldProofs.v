(* Routing and conversion composed (C01, last clause; C07).  Routing knows the schema only through two
   oracles, resolves and okconv; request reconstruction knows nothing of the trie.  Here the oracles are
   instantiated from a schema (resolves_of, okconv_of) and the theorems of both halves are joined.

   What the routing invariant does not give is a hypothesis about the template (earlier_leave): a
   variable that comes earlier in the template is applied later by params.set (path.search builds the
   slice innermost first), so it must not write into the field of the variable considered; for
   "/v1/{num}/{num}" the second capture is lost (dup_variable_first_wins).  The last field must be
   singular (a repeated field is appended to, not set); larking registers templates with repeated or
   map leaves, so this is a hypothesis as well. *)
From Larking Require Import Base.GoSem Base.B64 Model.Lexer Model.Trie Model.Match Spec.Grammar Spec.Route
  Proofs.LexerProofs Proofs.MatchProofs Proofs.TrieProofs Proofs.RoutingProofs Proofs.SpellProofs Proofs.LeastProofs.
From Larking Require Import Model.Schema Model.Params Model.Transcode Spec.Json3
  Proofs.ParamsProofs Proofs.ParamsConvProofs Proofs.RoundtripProofs.
Local Open Scope N_scope.

Lemma filter_rev_comm {A} (f : A -> bool) (l : list A) : filter f (rev l) = rev (filter f l).
Proof.
  induction l as [|a l IH]; [reflexivity|]. cbn [rev filter]. rewrite filter_app, IH. cbn [filter].
  destruct (f a); [reflexivity|apply app_nil_r].
Qed.

Lemma combine_app_same {A B} (l1 : list A) (l1' : list B) l2 l2' :
  length l1 = length l1' -> combine (l1 ++ l2) (l1' ++ l2') = combine l1 l1' ++ combine l2 l2'.
Proof.
  revert l1'. induction l1 as [|a l1 IH]; intros [|b l1'] H; cbn in *; try lia; [reflexivity|].
  rewrite IH by lia. reflexivity.
Qed.

Lemma combine_rev_rev {A B} (l : list A) : forall (l' : list B), length l = length l' ->
  combine (rev l) (rev l') = rev (combine l l').
Proof.
  induction l as [|a l IH]; intros [|b l'] H; cbn [length] in *; try lia; [reflexivity|].
  cbn [rev combine]. rewrite combine_app_same by (rewrite !rev_length; lia). rewrite IH by lia. reflexivity.
Qed.

(* conv_ok read at a variable of the template *)
Lemma conv_ok_nth okconv m caps : conv_ok okconv m caps = true -> length caps = length (m_vars m) ->
  forall i ns c, nth_error (m_vars m) i = Some ns -> ns <> [] -> nth_error (rev caps) i = Some c -> okconv ns c = true.
Proof.
  unfold conv_ok. intros HC Hlen i ns c Hi Hne Hc.
  rewrite <- (rev_involutive caps), combine_rev_rev, forallb_forall in HC by (rewrite rev_length; lia).
  specialize (HC (ns, c) (proj1 (in_rev _ _) (nth_error_In _ _ (proj2 (nth_error_combine _ _ _ _ _) (conj Hi Hc))))).
  destruct ns; [contradiction|exact HC].
Qed.

Lemma field_keys_nonnil : forall ts acc, acc <> [] -> fst (field_keys acc ts) <> [].
Proof.
  fix IH 1. intros ts acc Ha. destruct ts as [|d [|k ts']]; cbn [field_keys fst]; try exact Ha.
  destruct (is TDot d); cbn [fst]; [|exact Ha]. apply IH. destruct acc; discriminate.
Qed.

Definition var_resolved (resolves : str -> list str -> bool) (mid : str) (ns : list str) : Prop :=
  ns = [] \/ (ns <> [] /\ resolves mid ns = true).

Lemma compile_vars_resolve resolves : forall fuel mid ts es vfs,
  compile resolves fuel mid ts = Ok (es, vfs) -> Forall (var_resolved resolves mid) vfs.
Proof.
  induction fuel as [|f IH]; intros mid ts es vfs H; cbn [compile] in H; [discriminate|].
  (* every segment puts its edge and at most one field path in front of what the rest compiles to *)
  assert (Hstep : forall ts' e vf, Forall (var_resolved resolves mid) vf ->
            (do r <- compile resolves f mid ts'; Ok (e :: fst r, vf ++ snd r)) = Ok (es, vfs) ->
            Forall (var_resolved resolves mid) vfs).
  { intros ts' e vf Hvf Hb. apply bind_ok in Hb. destruct Hb as ([es' vfs'] & Ec & E). injection E as <- <-.
    apply Forall_app. split; [exact Hvf|exact (IH _ _ _ _ Ec)]. }
  assert (Hbare : Forall (var_resolved resolves mid) [[]]) by (constructor; [now left|constructor]).
  destruct ts as [|tok ts1]; [discriminate|].
  destruct (ttyp tok); try discriminate.
  - destruct ts1 as [|val ts2]; [discriminate|].
    destruct (ttyp val); try discriminate.
    + exact (Hstep ts2 _ [[]] Hbare H).
    + exact (Hstep ts2 _ [[]] Hbare H).
    + destruct ts2 as [|id ts3]; [discriminate|].
      pose proof (field_keys_nonnil ts3 [tval id] ltac:(discriminate)) as Hk.
      destruct (field_keys [tval id] ts3) as [keys ts4]. cbn [fst] in Hk.
      destruct ts4 as [|nxt ts5]; [discriminate|].
      assert (Hkeys : resolves mid keys = true -> Forall (var_resolved resolves mid) [keys])
        by (intros Er; constructor; [now right|constructor]).
      destruct (ttyp nxt); try discriminate.
      * destruct (resolves mid keys); [|discriminate]. exact (Hstep ts5 _ [keys] (Hkeys eq_refl) H).
      * destruct (until_varend ts5) as [[pat ts6]|]; [|discriminate].
        destruct (resolves mid keys); [|discriminate]. exact (Hstep ts6 _ [keys] (Hkeys eq_refl) H).
    + exact (Hstep ts2 _ [] (Forall_nil _) H).
  - destruct ts1 as [|val ts2]; [discriminate|]. inversion H; subst. constructor.
  - inversion H; subst. constructor.
Qed.

Lemma untouched_self fds : fds <> [] -> untouched fds (steps_path fds) = false.
Proof. intros H. rewrite <- (app_nil_r (steps_path fds)). apply untouched_nested. exact H. Qed.
Lemma untouched_parent : forall A B, B <> [] -> untouched (A ++ B) (steps_path A) = false.
Proof.
  intros A B HB. rewrite <- (app_nil_r (steps_path A)), untouched_under by exact HB.
  destruct B; [contradiction|reflexivity].
Qed.

Section Bound.
Variable ofloat : bool -> bytes -> option N.
Variable owkt : wkt -> bool -> bytes -> option subtree.
Variable sch : schema.
(* the request message type of every method (index into s_msgs), by method id *)
Variable req : str -> option nat.

Definition req_fields (rm : nat) : list field := msg_fields sch rm.

(* addRule: fieldPath(desc.Input().Fields(), keys...) != nil *)
Definition resolves_of (mid : str) (names : list str) : bool :=
  match req mid with
  | Some rm => match field_path sch (req_fields rm) names with Some _ => true | None => false end
  | None => false
  end.

(* path.search: parseParam(fds, capture) has no error, fds being the resolved names.  Match.route
   hands its oracle the names only (not the method), so the instance is per request message type. *)
Definition okconv_of (rm : nat) (names : list str) (text : str) : bool :=
  match field_path sch (req_fields rm) names with
  | Some fds => is_ok (parse_param ofloat owkt sch fds text)
  | None => false
  end.

(* serveHTTP: each (names, text) of the routing result becomes (fieldPath names, parseParam text) *)
Fixpoint convert_params (rm : nat) (nps : list (list str * str)) : outcome (list param) :=
  match nps with
  | [] => Ok []
  | (ns, c) :: r =>
    match field_path sch (req_fields rm) ns with
    | None => Err EInvalid
    | Some fds => do v <- parse_param ofloat owkt sch fds c; do ps <- convert_params rm r; Ok ((fds, v) :: ps)
    end
  end.

Definition conv (rm : nat) (nc : list str * str) (p : param) : Prop :=
  field_path sch (req_fields rm) (fst nc) = Some (fst p) /\ parse_param ofloat owkt sch (fst p) (snd nc) = Ok (snd p).

Lemma convert_params_conv rm : forall nps ps, convert_params rm nps = Ok ps -> Forall2 (conv rm) nps ps.
Proof.
  induction nps as [|[ns c] nps IH]; intros ps H; cbn [convert_params] in H.
  - inversion H; subst. constructor.
  - destruct (field_path sch (req_fields rm) ns) as [fds|] eqn:Ef; [|discriminate].
    destruct (parse_param ofloat owkt sch fds c) as [v| | |] eqn:Ep; cbn [bind] in H; try discriminate.
    destruct (convert_params rm nps) as [ps'| | |] eqn:Ec; cbn [bind] in H; try discriminate.
    inversion H; subst. constructor; [split; assumption|apply IH; reflexivity].
Qed.

Lemma convert_params_ok rm : forall nps,
  (forall nc, In nc nps -> okconv_of rm (fst nc) (snd nc) = true) -> exists ps, convert_params rm nps = Ok ps.
Proof.
  induction nps as [|[ns c] nps IH]; intros H; cbn [convert_params]; [eauto|].
  pose proof (H (ns, c) (or_introl eq_refl)) as H0. unfold okconv_of in H0. cbn [fst snd] in H0.
  destruct (field_path sch (req_fields rm) ns) as [fds|]; [|discriminate].
  destruct (parse_param ofloat owkt sch fds c) as [v| | |]; try discriminate. cbn [bind].
  destruct (IH (fun nc Hin => H nc (or_intror Hin))) as [ps ->]. cbn [bind]. eauto.
Qed.

Lemma parse_param_kind fds c :
  fds <> [] -> parse_param ofloat owkt sch fds c = parse_kind ofloat owkt sch (f_kind (snd (last_step fds))) c.
Proof. destruct fds; [contradiction|reflexivity]. Qed.
Lemma parse_param_nonnil fds c v : parse_param ofloat owkt sch fds c = Ok v -> fds <> [].
Proof. intros H ->. discriminate. Qed.

Lemma converted_is_json3 fds c v :
  parse_param ofloat owkt sch fds c = Ok v ->
  (exact_kind (f_kind (snd (last_step fds))) = true \/ f_kind (snd (last_step fds)) = KBytes) ->
  json3_text sch (f_kind (snd (last_step fds))) v c.
Proof.
  intros H Hk. rewrite (parse_param_kind fds c (parse_param_nonnil _ _ _ H)) in H.
  exact (reject_not_coerce ofloat owkt sch _ c v Hk H).
Qed.
Lemma converted_iff_json3 fds c v :
  fds <> [] -> exact_kind (f_kind (snd (last_step fds))) = true ->
  (parse_param ofloat owkt sch fds c = Ok v <-> json3_text sch (f_kind (snd (last_step fds))) v c).
Proof. intros Hne Hk. rewrite (parse_param_kind fds c Hne). exact (conv_exact ofloat owkt sch _ c v Hk). Qed.

Definition named (nc : list str * str) : bool := negb (is_nil (fst nc)).

(* the variables before variable i in the template (they are applied after it) leave its field alone *)
Definition earlier_leave (rm : nat) (vars : list (list str)) (i : nat) (fds : list step) : Prop :=
  forall j nsj fj, (j < i)%nat -> nth_error vars j = Some nsj -> nsj <> [] ->
    field_path sch (req_fields rm) nsj = Some fj -> untouched fj (steps_path fds) = true.

(* the same for all pairs: two variables of the template bind fields that do not touch *)
Definition vars_nontouching (rm : nat) (vars : list (list str)) : Prop :=
  forall i j nsi nsj fi fj, i <> j -> nth_error vars i = Some nsi -> nth_error vars j = Some nsj ->
    nsi <> [] -> nsj <> [] ->
    field_path sch (req_fields rm) nsi = Some fi -> field_path sch (req_fields rm) nsj = Some fj ->
    untouched fj (steps_path fi) = true.

Lemma nontouching_earlier rm vars i ns fds :
  vars_nontouching rm vars -> nth_error vars i = Some ns -> ns <> [] ->
  field_path sch (req_fields rm) ns = Some fds -> earlier_leave rm vars i fds.
Proof.
  intros Hn Hi Hne Hf j nsj fj Hj Hnj Hnej Hfj.
  apply (Hn i j ns nsj fds fj); auto. lia.
Qed.

(* (names, capture) per variable in template order; the slice is the named ones, reversed *)
Lemma bound_field_core rm : forall vars rcaps ps M0 M' i ns c,
  Forall2 (conv rm) (rev (filter named (combine vars rcaps))) ps ->
  params_set ps M0 = Ok M' ->
  nth_error vars i = Some ns -> ns <> [] -> nth_error rcaps i = Some c ->
  exists fds v, field_path sch (req_fields rm) ns = Some fds /\ fds <> [] /\
    parse_param ofloat owkt sch fds c = Ok v /\ In (fds, v) ps /\
    (singular_last fds -> earlier_leave rm vars i fds ->
       forall rel, Schema.lookup (steps_path fds ++ rel) M' = Schema.lookup rel (field_image (snd (last_step fds)) v)).
Proof.
  intros vars rcaps ps M0 M' i ns c HF HS Hv Hne Hc.
  destruct (Forall2_rev_filter_nth _ _ _ _ i (ns, c) HF (proj2 (nth_error_combine _ _ _ _ _) (conj Hv Hc)))
    as (pre & [fds v] & post & -> & [Hf Hp] & Hpost); [unfold named; now destruct ns|].
  cbn [fst snd] in Hf, Hp. exists fds, v. split; [exact Hf|]. split; [exact (parse_param_nonnil _ _ _ Hp)|]. split; [exact Hp|].
  split; [apply in_or_app; right; left; reflexivity|].
  intros Hs He rel.
  apply (params_set_wins pre fds v post M0 M' rel (parse_param_nonnil _ _ _ Hp) Hs); [|exact HS].
  intros p Hin. destruct (Hpost p Hin) as (j & [nsj cj] & Hj & Hnj & Hnamed & [Hfj _]).
  apply nth_error_combine in Hnj. apply (He j nsj (fst p) Hj (proj1 Hnj)); [|exact Hfj]. intros ->. discriminate.
Qed.

(* the slice of path parameters, read in template order *)
Lemma path_params_template m caps : length caps = length (m_vars m) ->
  Match.path_params (m, caps) = rev (filter named (combine (m_vars m) (rev caps))).
Proof.
  intros Hl. unfold Match.path_params.
  transitivity (filter named (combine (rev (m_vars m)) (rev (rev caps)))); [rewrite rev_involutive; reflexivity|].
  rewrite combine_rev_rev by (rewrite rev_length; lia). apply filter_rev_comm.
Qed.

Section Routed.
Variables isLetter isNumber : N -> bool.
Hypothesis sane : Sane isLetter isNumber.

Notation Inv := (TrieProofs.Inv isLetter isNumber resolves_of).
Notation compiled := (TrieProofs.compiled isLetter isNumber resolves_of).

Lemma var_resolved_field_path mid ns : var_resolved resolves_of mid ns -> ns <> [] ->
  exists rm fds, req mid = Some rm /\ field_path sch (req_fields rm) ns = Some fds.
Proof.
  intros [->|[_ H]] Hne; [contradiction|]. unfold resolves_of in H.
  destruct (req mid) as [rm|]; [|discriminate].
  destruct (field_path sch (req_fields rm) ns) as [fds|] eqn:Ef; [|discriminate]. eauto.
Qed.

Lemma field_path_nonnil pf ns fds : ns <> [] -> field_path sch pf ns = Some fds -> fds <> [].
Proof.
  intros Hne Hf ->. destruct ns as [|n0 rest]; [contradiction|].
  destruct (field_path_cons _ _ _ _ _ Hf) as (fd & A' & _ & E & _). discriminate.
Qed.

Theorem bound_fields_are_converted_captures :
  forall okconv L root verb p m caps,
  Inv L root -> Match.route okconv isLetter isNumber root verb p = Ok (m, caps) ->
  exists b es toks,
    (* routing: a registered binding of the method covers the path, with these captures *)
    In (m_id m, b) L /\ covers_verb (b_verb b) verb /\ m_body m = b_body b /\
    compiled (m_id m) b es (m_vars m) /\
    lex_path isLetter isNumber (normalise p) = Ok toks /\ MatchEdges es toks caps /\
    fill es (rev caps) = Some (normalise p) /\
    length caps = length (m_vars m) /\
    (* every named variable resolves in the request message of the method, and the router's
       conversion oracle accepted its capture *)
    (forall i ns, nth_error (m_vars m) i = Some ns -> ns <> [] ->
       exists rm fds, req (m_id m) = Some rm /\ field_path sch (req_fields rm) ns = Some fds /\ fds <> []) /\
    (forall i ns c, nth_error (m_vars m) i = Some ns -> ns <> [] -> nth_error (rev caps) i = Some c ->
       okconv ns c = true) /\
    forall rm, req (m_id m) = Some rm ->
      (* with the router's oracle instantiated from the schema, serveHTTP's conversion succeeds *)
      ((forall ns c, okconv ns c = true -> okconv_of rm ns c = true) ->
         exists ps, convert_params rm (Match.path_params (m, caps)) = Ok ps) /\
      (* conversion: what params.set leaves in the message *)
      forall ps M0 M', convert_params rm (Match.path_params (m, caps)) = Ok ps -> params_set ps M0 = Ok M' ->
      forall i ns c, nth_error (m_vars m) i = Some ns -> ns <> [] -> nth_error (rev caps) i = Some c ->
      exists fds v,
        field_path sch (req_fields rm) ns = Some fds /\ fds <> [] /\
        parse_param ofloat owkt sch fds c = Ok v /\ In (fds, v) ps /\
        ((exact_kind (f_kind (snd (last_step fds))) = true \/ f_kind (snd (last_step fds)) = KBytes) ->
           json3_text sch (f_kind (snd (last_step fds))) v c) /\
        (singular_last fds -> earlier_leave rm (m_vars m) i fds ->
           forall rel, Schema.lookup (steps_path fds ++ rel) M' = Schema.lookup rel (field_image (snd (last_step fds)) v)).
Proof.
  intros okconv L root verb p m caps HI H.
  destruct (dispatch_sound isLetter isNumber resolves_of okconv sane L root verb p m caps HI H)
    as (mid & b & es & toks & A & Emid & B & C & D & E & F).
  subst mid. unfold Match.route in H. rewrite E in H.
  assert (Hlen : length caps = length (m_vars m))
    by exact (sound_caps_length okconv verb root 0%nat toks m caps (Inv_TrieInv _ _ _ _ _ HI) (search_sound okconv _ _ _ _ _ H)).
  pose proof (search_conv_ok okconv _ _ _ _ _ _ H) as HC.
  exists b, es, toks.
  split; [exact A|]. split; [exact B|]. split; [exact C|]. split; [exact D|]. split; [exact E|]. split; [exact F|].
  split; [|split; [exact Hlen|split; [|split; [exact (conv_ok_nth okconv m caps HC Hlen)|]]]].
  - destruct (lex_path_sound _ _ _ _ E) as (HP & Hsp & _). rewrite <- Hsp.
    apply (covering_spells_path isLetter isNumber); [exact (proj2 (compiled_good _ _ _ _ _ _ _ D))|right; exact HP|exact F].
  - intros i ns Hi Hne. destruct D as (toks' & _ & D).
    pose proof (proj1 (Forall_forall _ _) (compile_vars_resolve resolves_of _ _ _ _ _ D) ns (nth_error_In _ _ Hi)) as Hr.
    destruct (var_resolved_field_path _ _ Hr Hne) as (rm & fds & Hrm & Hf).
    exists rm, fds. split; [exact Hrm|]. split; [exact Hf|].
    exact (field_path_nonnil _ _ _ Hne Hf).
  - intros rm Hrm. split.
    + intros Himp. apply convert_params_ok. intros [ns c] Hin. apply filter_In in Hin. destruct Hin as [Hin Hn].
      apply Himp. pose proof (proj1 (forallb_forall _ _) HC _ Hin) as Hc. cbn [fst snd] in *.
      destruct ns; [discriminate|exact Hc].
    + rewrite (path_params_template m caps Hlen). intros ps M0 M' Hconv Hset i ns c Hi Hne Hc.
      destruct (bound_field_core rm (m_vars m) (rev caps) ps M0 M' i ns c (convert_params_conv rm _ _ Hconv) Hset Hi Hne Hc)
        as (fds & v & Hf & Hfn & Hp & Hin & Hwin).
      exists fds, v. split; [exact Hf|]. split; [exact Hfn|]. split; [exact Hp|]. split; [exact Hin|].
      split; [exact (converted_is_json3 fds c v Hp)|exact Hwin].
Qed.

(* the same read at one variable, given only that the variables before it leave its field alone *)
Lemma bound_field_earlier_leave :
  forall okconv L root verb p m caps,
  Inv L root -> Match.route okconv isLetter isNumber root verb p = Ok (m, caps) ->
  forall rm ps M0 M', req (m_id m) = Some rm ->
  convert_params rm (Match.path_params (m, caps)) = Ok ps -> params_set ps M0 = Ok M' ->
  forall i ns c, nth_error (m_vars m) i = Some ns -> ns <> [] -> nth_error (rev caps) i = Some c ->
  (forall fds, field_path sch (req_fields rm) ns = Some fds -> earlier_leave rm (m_vars m) i fds) ->
  exists fds v,
    field_path sch (req_fields rm) ns = Some fds /\ parse_param ofloat owkt sch fds c = Ok v /\
    ((exact_kind (f_kind (snd (last_step fds))) = true \/ f_kind (snd (last_step fds)) = KBytes) ->
       json3_text sch (f_kind (snd (last_step fds))) v c) /\
    (singular_last fds ->
       forall rel, Schema.lookup (steps_path fds ++ rel) M' = Schema.lookup rel (field_image (snd (last_step fds)) v)).
Proof.
  intros okconv L root verb p m caps HI H rm ps M0 M' Hrm Hconv Hset i ns c Hi Hne Hc He.
  destruct (bound_fields_are_converted_captures okconv L root verb p m caps HI H)
    as (b & es & toks & _ & _ & _ & _ & _ & _ & _ & _ & _ & _ & Hmain).
  destruct (Hmain rm Hrm) as [_ Hm].
  destruct (Hm ps M0 M' Hconv Hset i ns c Hi Hne Hc) as (fds & v & Hf & _ & Hp & _ & Hj & Hwin).
  exists fds, v. split; [exact Hf|]. split; [exact Hp|]. split; [exact Hj|].
  intros Hs. exact (Hwin Hs (He fds Hf)).
Qed.

(* Partial statement with no hypothesis about other variables: a variable that only bare wildcards
   precede -- the first named variable of any template, the variable of a template with one -- *)
Corollary bound_fields_are_converted_captures_partial :
  forall okconv L root verb p m caps,
  Inv L root -> Match.route okconv isLetter isNumber root verb p = Ok (m, caps) ->
  forall rm ps M0 M', req (m_id m) = Some rm ->
  convert_params rm (Match.path_params (m, caps)) = Ok ps -> params_set ps M0 = Ok M' ->
  forall i ns c, nth_error (m_vars m) i = Some ns -> ns <> [] -> nth_error (rev caps) i = Some c ->
  (forall j nsj, (j < i)%nat -> nth_error (m_vars m) j = Some nsj -> nsj = []) ->
  exists fds v,
    field_path sch (req_fields rm) ns = Some fds /\ parse_param ofloat owkt sch fds c = Ok v /\
    ((exact_kind (f_kind (snd (last_step fds))) = true \/ f_kind (snd (last_step fds)) = KBytes) ->
       json3_text sch (f_kind (snd (last_step fds))) v c) /\
    (singular_last fds ->
       forall rel, Schema.lookup (steps_path fds ++ rel) M' = Schema.lookup rel (field_image (snd (last_step fds)) v)).
Proof.
  intros okconv L root verb p m caps HI H rm ps M0 M' Hrm Hconv Hset i ns c Hi Hne Hc Hfirst.
  eapply bound_field_earlier_leave; eauto.
  intros fds _ j nsj fj Hlt Hnj Hnej _. exfalso. exact (Hnej (Hfirst j nsj Hlt Hnj)).
Qed.

(* the field paths of the variables, resolved, in template order ([] stays []: fieldPath of no names) *)
Fixpoint vars_steps (rm : nat) (vars : list (list str)) : option (list (list step)) :=
  match vars with
  | [] => Some []
  | ns :: r =>
    match field_path sch (req_fields rm) ns, vars_steps rm r with
    | Some f, Some l => Some (f :: l)
    | _, _ => None
    end
  end.

Lemma vars_steps_nth rm : forall vars vs i, vars_steps rm vars = Some vs ->
  (forall ns, nth_error vars i = Some ns -> exists fds, nth_error vs i = Some fds /\ field_path sch (req_fields rm) ns = Some fds) /\
  (forall fds, nth_error vs i = Some fds -> exists ns, nth_error vars i = Some ns /\ field_path sch (req_fields rm) ns = Some fds).
Proof.
  induction vars as [|n0 vars IH]; intros vs i H; cbn [vars_steps] in H.
  - inversion H; subst. split; intros x Hx; destruct i; discriminate.
  - destruct (field_path sch (req_fields rm) n0) as [f0|] eqn:Ef; [|discriminate].
    destruct (vars_steps rm vars) as [l|] eqn:El; [|discriminate]. inversion H; subst vs.
    destruct i as [|i]; cbn [nth_error].
    + split; intros x Hx; inversion Hx; subst; eauto.
    + exact (IH l i eq_refl).
Qed.

Lemma vars_steps_total rm mid : forall vars, req mid = Some rm ->
  (forall i ns, nth_error vars i = Some ns -> ns <> [] ->
     exists rm' fds, req mid = Some rm' /\ field_path sch (req_fields rm') ns = Some fds /\ fds <> []) ->
  exists vs, vars_steps rm vars = Some vs /\ length vs = length vars.
Proof.
  intros vars Hrm. induction vars as [|ns vars IH]; intros H; cbn [vars_steps]; [eauto|].
  destruct (IH (fun i => H (S i))) as (l & -> & Hl).
  assert (Hf : exists f, field_path sch (req_fields rm) ns = Some f).
  { destruct ns as [|n0 ns']; [cbn [field_path]; eauto|].
    destruct (H 0%nat _ eq_refl ltac:(discriminate)) as (rm' & fds & Hrm' & Hf & _).
    rewrite Hrm in Hrm'. inversion Hrm'; subst rm'. eauto. }
  destruct Hf as [f ->]. exists (f :: l). split; [reflexivity|]. cbn [length]. now rewrite Hl.
Qed.

Section Decode.
Variable unmarshal : nat -> nat -> bytes -> option subtree.
Variable inflate : bytes -> option bytes.

(* The routed binding as a rule of the request decoder: input type, resolved variables, any body
   selector; the request: the captures in template order, any query, any body.  If the request is
   served, the handler's message holds at every variable's field the converted capture -- whatever
   the query and the body said about that field (path parameters are applied last). *)
Theorem bound_fields_with_query_and_body :
  forall okconv L root verb p m caps,
  Inv L root -> Match.route okconv isLetter isNumber root verb p = Ok (m, caps) ->
  forall rm, req (m_id m) = Some rm ->
  exists vs, vars_steps rm (m_vars m) = Some vs /\ length vs = length (rev caps) /\
  forall bd query body codec gz M,
    decode_request ofloat owkt unmarshal inflate sch (mkRule rm vs bd) (mkReq (rev caps) query body codec gz) = Ok M ->
    forall i ns c, nth_error (m_vars m) i = Some ns -> ns <> [] -> nth_error (rev caps) i = Some c ->
    exists fds v,
      field_path sch (req_fields rm) ns = Some fds /\ nth_error vs i = Some fds /\ fds <> [] /\
      parse_param ofloat owkt sch fds c = Ok v /\
      ((exact_kind (f_kind (snd (last_step fds))) = true \/ f_kind (snd (last_step fds)) = KBytes) ->
         json3_text sch (f_kind (snd (last_step fds))) v c) /\
      (singular_last fds -> earlier_leave rm (m_vars m) i fds ->
         forall rel, Schema.lookup (steps_path fds ++ rel) M = Schema.lookup rel (field_image (snd (last_step fds)) v)).
Proof.
  intros okconv L root verb p m caps HI H rm Hrm.
  destruct (bound_fields_are_converted_captures okconv L root verb p m caps HI H)
    as (b & es & toks & _ & _ & _ & _ & _ & _ & _ & Hlen & Hres & _).
  destruct (vars_steps_total rm (m_id m) (m_vars m) Hrm Hres) as (vs & Hvs & Hlv).
  exists vs. split; [exact Hvs|]. split; [rewrite rev_length, Hlen; exact Hlv|].
  intros bd query body codec gz M HD i ns c Hi Hne Hc.
  destruct (proj1 (vars_steps_nth rm _ vs i Hvs) ns Hi) as (fds & Hvi & Hf).
  pose proof (field_path_nonnil _ _ _ Hne Hf) as Hfn.
  destruct (path_param_wins ofloat owkt unmarshal inflate sch (mkRule rm vs bd) (mkReq (rev caps) query body codec gz)
              M i fds c Hvi Hfn Hc HD) as (v & Hp & Hwin).
  exists fds, v. split; [exact Hf|]. split; [exact Hvi|]. split; [exact Hfn|]. split; [exact Hp|].
  split; [exact (converted_is_json3 fds c v Hp)|].
  intros Hs He. apply (Hwin Hs). intros j fj Hj Hnj. cbn [r_vars] in Hnj.
  destruct (proj2 (vars_steps_nth rm _ vs j Hvs) fj Hnj) as (nsj & Hnsj & Hfj).
  destruct nsj as [|x nsj'].
  - cbn [field_path] in Hfj. inversion Hfj; subst fj. reflexivity.
  - exact (He j (x :: nsj') fj Hj Hnsj ltac:(discriminate) Hfj).
Qed.
End Decode.
End Routed.
End Bound.

(* C07's vars_independent asks every pair of variables, in both directions, to leave each other's
   path alone; the path of a bare wildcard is empty and no parameter leaves the empty path alone, so
   no rule with a bare wildcard and a named variable is vars_independent.  The theorems above need
   (and state) the direction that matters only. *)
Lemma vars_independent_no_wildcard r i j fj :
  nth_error (r_vars r) i = Some [] -> nth_error (r_vars r) j = Some fj -> fj <> [] -> ~ vars_independent r.
Proof.
  intros Hi Hj Hne Hind.
  assert (Hij : i <> j) by (intros ->; rewrite Hi in Hj; inversion Hj; subst; contradiction).
  specialize (Hind i j [] fj Hij Hi Hj). destruct fj; [contradiction|]. cbn in Hind. discriminate.
Qed.

(* message 0 { int32 num = 1; Nest nest = 2; }   message 1 (Nest) { string a = 1; }
   method /S/M with request type 0 and the rule GET /v1/{num}/x/{nest.a} *)
Definition bf_letter (r : N) : bool := ((65 <=? r) && (r <=? 90)) || ((97 <=? r) && (r <=? 122)).
Definition bf_number (r : N) : bool := (48 <=? r) && (r <=? 57).
Example bf_sane : Sane bf_letter bf_number.
Proof. intros r H. cbn in H. repeat (destruct H as [ <- | H ]; [split; reflexivity|]). contradiction. Qed.

Definition bf_s (l : list N) : str := l.
Definition n_num := bf_s [110;117;109].              (* "num" *)
Definition n_nest := bf_s [110;101;115;116].         (* "nest" *)
Definition n_a := bf_s [97].                         (* "a" *)
Definition bf_num : field := mkField 1 n_num n_num KInt32 Singular None false.
Definition bf_nest : field := mkField 2 n_nest n_nest (KMessage 1) Singular None true.
Definition bf_a : field := mkField 1 n_a n_a KString Singular None false.
Definition bf_sch : schema := mkSchema [mkMsg WNone [bf_num; bf_nest]; mkMsg WNone [bf_a]] [].
Definition bf_mid : str := bf_s [47;83;47;77].       (* "/S/M" *)
Definition bf_req (mid : str) : option nat := if str_eqb mid bf_mid then Some 0%nat else None.
Definition bf_nofloat (_ : bool) (_ : bytes) : option N := None.
Definition bf_nowkt (_ : wkt) (_ : bool) (_ : bytes) : option subtree := None.
Definition bf_GET : str := bf_s [71;69;84].
Definition bf_all (_ : str) (_ : list str) := true.
Definition bf_decl (tmpl : str) : list mdecl :=
  [ {| d_id := bf_mid; d_config := [];
       d_annot := Some {| h_main := {| b_verb := bf_GET; b_tmpl := tmpl; b_body := Trie.BNone; b_resp := []; b_nested := false |};
                          h_adds := [] |} |} ].
Definition bf_trie (tmpl : str) : node :=
  run_services bf_letter bf_number (resolves_of bf_sch bf_req) bf_all bf_all empty_node [bf_decl tmpl].
Definition bf_okconv := okconv_of bf_nofloat bf_nowkt bf_sch 0%nat.
Definition bf_convert := convert_params bf_nofloat bf_nowkt bf_sch 0%nat.

(* "/v1/{num}/x/{nest.a}" *)
Definition bf_tmpl : str := bf_s [47;118;49;47;123;110;117;109;125;47;120;47;123;110;101;115;116;46;97;125].
Definition bf_root : node := bf_trie bf_tmpl.
(* "/v1/42/x/hello" *)
Definition bf_path : str := bf_s [47;118;49;47;52;50;47;120;47;104;101;108;108;111].
Definition t_42 := bf_s [52;50].
Definition t_hello := bf_s [104;101;108;108;111].
Definition bf_m : minfo := {| m_id := bf_mid; m_vars := [[n_num]; [n_nest; n_a]]; m_body := Trie.BNone; m_resp := [] |}.
Definition bf_ps : list param :=
  [ ([([bf_num; bf_nest], bf_nest); ([bf_a], bf_a)], PScalar (SStr t_hello)); ([([bf_num; bf_nest], bf_num)], PScalar (SInt 42)) ].

(* the routed binding, the captures (deepest first), the parameters, the final message *)
Example bf_routed :
  Match.route bf_okconv bf_letter bf_number bf_root bf_GET bf_path = Ok (bf_m, [t_hello; t_42]) /\
  Match.path_params (bf_m, [t_hello; t_42]) = [([n_nest; n_a], t_hello); ([n_num], t_42)] /\
  bf_convert (Match.path_params (bf_m, [t_hello; t_42])) = Ok bf_ps /\
  params_set bf_ps [] = Ok [([1], ELeaf (SInt 42)); ([2; 1], ELeaf (SStr t_hello)); ([2], EPresent)].
Proof. vm_compute. repeat split; reflexivity. Qed.

(* the hypotheses of the theorems hold for it: the trie satisfies the registration invariant, the
   router's oracle is the schema's, the two variables bind non-touching singular fields -- and the
   conclusion, obtained from the theorem (not by evaluation), is what the evaluation shows *)
Example bf_inv : exists L, TrieProofs.Inv bf_letter bf_number (resolves_of bf_sch bf_req) L bf_root.
Proof.
  destruct (published_Inv bf_letter bf_number (resolves_of bf_sch bf_req) bf_all bf_all [bf_decl bf_tmpl] [] empty_node
              (Inv_empty bf_letter bf_number (resolves_of bf_sch bf_req))) as (L' & HI & _).
  exists (L' ++ []). exact HI.
Qed.

Example bf_nontouching : vars_nontouching bf_sch 0%nat (m_vars bf_m).
Proof.
  intros i j nsi nsj fi fj Hij Hi Hj _ _ Hfi Hfj. cbn [m_vars bf_m] in Hi, Hj.
  destruct i as [|[|[|i]]]; cbn in Hi; try discriminate; inversion Hi; subst nsi;
  destruct j as [|[|[|j]]]; cbn in Hj; try discriminate; inversion Hj; subst nsj; try contradiction;
  vm_compute in Hfi; vm_compute in Hfj; inversion Hfi; inversion Hfj; subst; reflexivity.
Qed.

Example bf_by_theorem : forall M', params_set bf_ps [] = Ok M' ->
  Schema.lookup [1] M' = Some (ELeaf (SInt 42)) /\ Schema.lookup [2; 1] M' = Some (ELeaf (SStr t_hello)).
Proof.
  intros M' HS. destruct bf_inv as [L HI]. destruct bf_routed as (HR & _ & HC & _).
  split.
  - destruct (bound_field_earlier_leave bf_nofloat bf_nowkt bf_sch bf_req bf_letter bf_number bf_sane
                bf_okconv L bf_root bf_GET bf_path bf_m _ HI HR 0%nat bf_ps [] M' eq_refl HC HS
                0%nat [n_num] t_42 eq_refl ltac:(discriminate) eq_refl
                (fun fds => nontouching_earlier bf_sch 0%nat _ 0%nat [n_num] fds bf_nontouching eq_refl ltac:(discriminate)))
      as (fds & v & Hf & Hp & _ & Hwin).
    vm_compute in Hf. inversion Hf; subst fds. vm_compute in Hp. inversion Hp; subst v.
    exact (Hwin eq_refl []).
  - destruct (bound_field_earlier_leave bf_nofloat bf_nowkt bf_sch bf_req bf_letter bf_number bf_sane
                bf_okconv L bf_root bf_GET bf_path bf_m _ HI HR 0%nat bf_ps [] M' eq_refl HC HS
                1%nat [n_nest; n_a] t_hello eq_refl ltac:(discriminate) eq_refl
                (fun fds => nontouching_earlier bf_sch 0%nat _ 1%nat [n_nest; n_a] fds bf_nontouching eq_refl ltac:(discriminate)))
      as (fds & v & Hf & Hp & _ & Hwin).
    vm_compute in Hf. inversion Hf; subst fds. vm_compute in Hp. inversion Hp; subst v.
    exact (Hwin eq_refl []).
Qed.

(* the hypothesis about earlier variables is needed, and registration does not provide it:
   "/v1/{num}/{num}" is registered, "/v1/1/2" is routed to it with captures "2" (deepest) and "1",
   and the message holds the capture of the FIRST variable -- the second one's is overwritten *)
Definition bf_dup_tmpl : str := bf_s [47;118;49;47;123;110;117;109;125;47;123;110;117;109;125].
Definition bf_dup_path : str := bf_s [47;118;49;47;49;47;50].
Definition bf_dup_m : minfo := {| m_id := bf_mid; m_vars := [[n_num]; [n_num]]; m_body := Trie.BNone; m_resp := [] |}.
Example dup_variable_first_wins :
  Match.route bf_okconv bf_letter bf_number (bf_trie bf_dup_tmpl) bf_GET bf_dup_path = Ok (bf_dup_m, [bf_s [50]; bf_s [49]]) /\
  exists ps, bf_convert (Match.path_params (bf_dup_m, [bf_s [50]; bf_s [49]])) = Ok ps /\
    params_set ps [] = Ok [([1], ELeaf (SInt 1))].
Proof. split; [vm_compute; reflexivity|]. eexists. split; vm_compute; reflexivity. Qed.

(* the same request with a query (?num=7&nest.a=q) and a body (num = 5, nest.a = "b") that
   contradict the path: the handler's message has the path's values *)
Definition bf_vs : list (list step) := [[([bf_num; bf_nest], bf_num)]; [([bf_num; bf_nest], bf_nest); ([bf_a], bf_a)]].
Definition bf_body : subtree := [([1], ELeaf (SInt 5)); ([2], EPresent); ([2; 1], ELeaf (SStr (bf_s [98])))].
Definition bf_query : list (bytes * list bytes) := [(n_num, [bf_s [55]]); (bf_s [110;101;115;116;46;97], [bf_s [113]])].
Example bf_with_query_and_body :
  vars_steps bf_sch 0%nat (m_vars bf_m) = Some bf_vs /\
  exists M,
    decode_request bf_nofloat bf_nowkt (fun _ _ _ => Some bf_body) (fun b => Some b) bf_sch
      (mkRule 0%nat bf_vs Transcode.BStar) (mkReq (rev [t_hello; t_42]) bf_query (Some []) (Some 0%nat) false) = Ok M /\
    Schema.lookup [1] M = Some (ELeaf (SInt 42)) /\ Schema.lookup [2; 1] M = Some (ELeaf (SStr t_hello)).
Proof. split; [vm_compute; reflexivity|]. eexists. vm_compute. repeat split; reflexivity. Qed.

