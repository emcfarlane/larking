(* The routing trie (Model/Trie.v): what upd builds and what the leaf update stores, the structural
   invariant every built trie satisfies, provenance of every stored binding, totality of registration
   on lexed templates. *)
From Larking Require Import Base.GoSem Model.Lexer Model.Trie Spec.Grammar Spec.Route Proofs.LexerProofs.
From Coq Require Import Sorting.Sorted.
Local Open Scope N_scope.

Lemma str_eqb_eq a b : str_eqb a b = true <-> a = b.
Proof. apply (list_eqb_eq N.eqb N.eqb_eq). Qed.
Lemma str_eqb_refl a : str_eqb a a = true.
Proof. exact (eqb_refl_of _ str_eqb_eq a). Qed.
Lemma str_eqb_neq a b : str_eqb a b = false <-> a <> b.
Proof. exact (eqb_neq_of _ str_eqb_eq a b). Qed.

Lemma assoc_set_eq {A} k (v : A) l : assoc k (set_assoc k v l) = Some v.
Proof.
  induction l as [|[k' v'] l IH]; cbn; [now rewrite str_eqb_refl|].
  destruct (str_eqb k' k) eqn:E; cbn; rewrite E; auto.
Qed.
Lemma assoc_set_neq {A} k k2 (v : A) l : k2 <> k -> assoc k2 (set_assoc k v l) = assoc k2 l.
Proof.
  intros Hne. assert (Hf : str_eqb k k2 = false) by (apply str_eqb_neq; congruence).
  induction l as [|[k' v'] l IH]; cbn; [now rewrite Hf|].
  destruct (str_eqb k' k) eqn:E; cbn.
  - apply str_eqb_eq in E. subst k'. now rewrite Hf.
  - now destruct (str_eqb k' k2).
Qed.
Lemma assoc_in {A} k (v : A) l : assoc k l = Some v -> In (k, v) l.
Proof.
  induction l as [|[k' v'] l IH]; cbn; [discriminate|].
  destruct (str_eqb k' k) eqn:E; intros H.
  - apply str_eqb_eq in E. inversion H; subst. now left.
  - right. auto.
Qed.

Lemma nodup_assoc {A} k (v : A) l : NoDup (map fst l) -> In (k, v) l -> assoc k l = Some v.
Proof.
  induction l as [|[k' v'] l IH]; cbn; [contradiction|]. intros Hn [E|Hin].
  - inversion E; subst. now rewrite str_eqb_refl.
  - inversion Hn as [|? ? Hk Hn']; subst. destruct (str_eqb k' k) eqn:E; [|now apply IH].
    apply str_eqb_eq in E. subst k'. exfalso. apply Hk. change k with (fst (k, v)). now apply in_map.
Qed.

Lemma find_set_eq pat n l : find_var (spell pat) (set_var pat n l) = Some n.
Proof.
  induction l as [|[p n'] l IH]; cbn; [now rewrite str_eqb_refl|].
  destruct (str_eqb (spell p) (spell pat)) eqn:E; cbn; [now rewrite E|].
  destruct (str_ltb (spell pat) (spell p)); cbn; [now rewrite str_eqb_refl|]. now rewrite E.
Qed.
Lemma find_set_neq pat name n l : name <> spell pat -> find_var name (set_var pat n l) = find_var name l.
Proof.
  intros Hne. assert (Hf : str_eqb (spell pat) name = false) by (apply str_eqb_neq; congruence).
  induction l as [|[p n'] l IH]; cbn; [now rewrite Hf|].
  destruct (str_eqb (spell p) (spell pat)) eqn:E; cbn.
  - apply str_eqb_eq in E. rewrite E, Hf. reflexivity.
  - destruct (str_ltb (spell pat) (spell p)); cbn; [now rewrite Hf|]. destruct (str_eqb (spell p) name); auto.
Qed.
Lemma find_var_in name l c : find_var name l = Some c -> exists pat, In (pat, c) l /\ spell pat = name.
Proof.
  induction l as [|[p n] l IH]; cbn; [discriminate|].
  destruct (str_eqb (spell p) name) eqn:E.
  - intros H. inversion H; subst. exists p. split; [now left|now apply str_eqb_eq].
  - intros H. destruct (IH H) as (pat & Hin & Hs). exists pat. split; [now right|exact Hs].
Qed.

Lemma spell_lit s : spell [Tok TLiteral s] = s.
Proof. unfold spell. cbn. now rewrite app_nil_r. Qed.

(* Literal edges are told apart by their text, variable edges by the spelling of their pattern. *)
Inductive ekey : Type := KLit : str -> ekey | KVar : str -> ekey.
Definition edge_key (e : edge) : ekey := match e with ELit k => KLit k | EVar pat => KVar (spell pat) end.
Definition keys (es : list edge) : list ekey := map edge_key es.

Lemma ekey_dec (a b : ekey) : {a = b} + {a <> b}.
Proof. decide equality; apply (list_eq_dec N.eq_dec). Qed.
Lemma keys_cons e es : keys (e :: es) = edge_key e :: keys es.
Proof. reflexivity. Qed.

(* One edge down: the child an edge names, the same with a fresh node for a missing one (what upd
   descends into), and the node with that child replaced (what upd rebuilds). *)
Definition child_at (e : edge) (nd : node) : option node :=
  match e with ELit k => assoc k (n_segs nd) | EVar pat => find_var (spell pat) (n_vars nd) end.
Definition child (e : edge) (nd : node) : node :=
  match child_at e nd with Some c => c | None => empty_node end.
Definition set_child (e : edge) (c nd : node) : node :=
  match e with
  | ELit k => Node (set_assoc k c (n_segs nd)) (n_vars nd) (n_meths nd) (n_mall nd)
  | EVar pat => Node (n_segs nd) (set_var pat c (n_vars nd)) (n_meths nd) (n_mall nd)
  end.

Lemma walk_cons e es nd : walk_to (e :: es) nd = match child_at e nd with Some c => walk_to es c | None => None end.
Proof. now destruct e. Qed.
Lemma upd_cons e es f nd : upd (e :: es) f nd = do c <- upd es f (child e nd); Ok (set_child e c nd).
Proof. now destruct e. Qed.
Lemma child_at_key e e' nd : edge_key e = edge_key e' -> child_at e nd = child_at e' nd.
Proof. destruct e, e'; cbn; congruence. Qed.
Lemma child_at_set e' e c nd :
  child_at e' (set_child e c nd) = if ekey_dec (edge_key e') (edge_key e) then Some c else child_at e' nd.
Proof.
  destruct e' as [k'|p'], e as [k|p]; cbn [child_at set_child edge_key n_segs n_vars];
    destruct (ekey_dec _ _) as [E|E]; try discriminate E; auto.
  - inversion E; subst. apply assoc_set_eq.
  - apply assoc_set_neq. congruence.
  - inversion E as [E']. rewrite E'. apply find_set_eq.
  - apply find_set_neq. congruence.
Qed.
Lemma child_at_set_eq e c nd : child_at e (set_child e c nd) = Some c.
Proof. rewrite child_at_set. now destruct (ekey_dec _ _). Qed.

Lemma walk_to_keys es1 : forall es2 nd, keys es1 = keys es2 -> walk_to es1 nd = walk_to es2 nd.
Proof.
  induction es1 as [|e1 es1 IH]; intros [|e2 es2] nd H; try discriminate; auto.
  rewrite !keys_cons in H. injection H as H1 H2. rewrite !walk_cons, (child_at_key e1 e2 nd H1).
  destruct (child_at e2 nd); auto.
Qed.

(* what a node offers, apart from its children *)
Definition info (nd : node) := (n_meths nd, n_mall nd).
Definition info_at (nd : node) (es : list edge) : option (list (str * minfo) * option minfo) :=
  match walk_to es nd with Some n => Some (info n) | None => None end.

Fixpoint is_prefix (a b : list ekey) : bool :=
  match a, b with
  | [], _ => true
  | x :: a', y :: b' => if ekey_dec x y then is_prefix a' b' else false
  | _ :: _, [] => false
  end.

Definition same_kids (a b : node) : Prop := n_segs a = n_segs b /\ n_vars a = n_vars b.
Definition keeps_children (f : node -> outcome node) : Prop := forall nd nd', f nd = Ok nd' -> same_kids nd' nd.

Lemma child_at_kids e a b : same_kids a b -> child_at e a = child_at e b.
Proof. intros [Hs Hv]. destruct e; cbn; congruence. Qed.
Lemma info_set_child e c nd : info (set_child e c nd) = info nd.
Proof. now destruct e. Qed.

(* the node upd hands to f: the one es0 leads to, or a fresh one *)
Definition leaf_of (nd : node) (es0 : list edge) : node :=
  match walk_to es0 nd with Some n => n | None => empty_node end.

Lemma walk_empty es : es <> [] -> walk_to es empty_node = None.
Proof. destruct es as [|[k|p] es]; [contradiction|reflexivity|reflexivity]. Qed.
Lemma leaf_of_empty es : leaf_of empty_node es = empty_node.
Proof. unfold leaf_of. destruct es as [|[k|p] es]; reflexivity. Qed.
Lemma leaf_of_cons e es nd : leaf_of nd (e :: es) = leaf_of (child e nd) es.
Proof. unfold leaf_of at 1, child. rewrite walk_cons. destruct (child_at e nd); [reflexivity|]. now rewrite leaf_of_empty. Qed.
Lemma leaf_of_keys nd es1 es2 : keys es1 = keys es2 -> leaf_of nd es1 = leaf_of nd es2.
Proof. intros H. unfold leaf_of. now rewrite (walk_to_keys es1 es2 nd H). Qed.

Lemma info_at_walk es nd n : walk_to es nd = Some n -> info_at nd es = Some (info n).
Proof. intros H. unfold info_at. now rewrite H. Qed.
Lemma info_at_empty es i : info_at empty_node es = Some i -> i = ([], None).
Proof. unfold info_at. destruct es as [|[k|p] es]; cbn; intros H; inversion H; reflexivity. Qed.
Lemma info_leaf_of root es i : info_at root es = Some i -> i = info (leaf_of root es).
Proof. unfold info_at, leaf_of. destruct (walk_to es root); intros H; inversion H; reflexivity. Qed.
Lemma info_leaf_none root es : info_at root es = None -> leaf_of root es = empty_node.
Proof. unfold info_at, leaf_of. destruct (walk_to es root); [discriminate|reflexivity]. Qed.
Lemma nostar_leaf root es :
  (forall es i, info_at root es = Some i -> assoc star_verb (fst i) = None) -> assoc star_verb (n_meths (leaf_of root es)) = None.
Proof. intros H. specialize (H es). unfold info_at, leaf_of in *. destruct (walk_to es root); [exact (H _ eq_refl)|reflexivity]. Qed.
Lemma info_at_keys root es1 es2 : keys es1 = keys es2 -> info_at root es1 = info_at root es2.
Proof. intros H. unfold info_at. now rewrite (walk_to_keys es1 es2 root H). Qed.

(* nd with the node at es replaced by l; nodes missing on the way are created empty *)
Fixpoint set_at (es : list edge) (l nd : node) : node :=
  match es with [] => l | e :: es' => set_child e (set_at es' l (child e nd)) nd end.

Lemma upd_eq es : forall f nd, upd es f nd = do l <- f (leaf_of nd es); Ok (set_at es l nd).
Proof.
  induction es as [|e es IH]; intros f nd.
  - unfold leaf_of. cbn. now destruct (f nd).
  - rewrite upd_cons, leaf_of_cons, IH. now destruct (f _).
Qed.
Lemma upd_inv es f nd nd' : upd es f nd = Ok nd' -> exists l, f (leaf_of nd es) = Ok l /\ nd' = set_at es l nd.
Proof. rewrite upd_eq. intros H. apply bind_ok in H. destruct H as (l & Hl & H). exists l. now inversion H. Qed.

Lemma info_set_at es0 : forall l nd es, same_kids l (leaf_of nd es0) ->
  info (leaf_of (set_at es0 l nd) es) =
  if list_eq_dec ekey_dec (keys es) (keys es0) then info l else info (leaf_of nd es).
Proof.
  induction es0 as [|e0 es0 IH]; intros l nd es Hk; cbn [set_at].
  - destruct es as [|e es]; [reflexivity|]. destruct (list_eq_dec _ _ _) as [E|E]; [discriminate E|].
    rewrite !leaf_of_cons. unfold child. now rewrite (child_at_kids e l nd Hk).
  - rewrite leaf_of_cons in Hk. destruct es as [|e es]; rewrite !keys_cons.
    + destruct (list_eq_dec _ _ _) as [E|E]; [discriminate E|]. apply info_set_child.
    + rewrite !leaf_of_cons. unfold child at 1. rewrite child_at_set.
      destruct (ekey_dec (edge_key e) (edge_key e0)) as [Ee|Ee].
      * rewrite (IH _ _ es Hk). unfold child. rewrite (child_at_key e e0 nd Ee).
        destruct (list_eq_dec _ _ _) as [E|E], (list_eq_dec _ _ _) as [E'|E']; try reflexivity; exfalso; congruence.
      * destruct (list_eq_dec _ _ _) as [E'|E']; [injection E'; contradiction|reflexivity].
Qed.

Lemma exists_set_at es0 : forall l nd es, same_kids l (leaf_of nd es0) ->
  (walk_to es (set_at es0 l nd) <> None <-> walk_to es nd <> None \/ is_prefix (keys es) (keys es0) = true).
Proof.
  induction es0 as [|e0 es0 IH]; intros l nd es Hk; cbn [set_at].
  - destruct es as [|e es]; [split; [now right|discriminate]|].
    rewrite !walk_cons, (child_at_kids e l nd Hk). split; [auto|]. intros [X|X]; [exact X|discriminate X].
  - rewrite leaf_of_cons in Hk. destruct es as [|e es]; [split; [now right|discriminate]|].
    rewrite !walk_cons, child_at_set, !keys_cons. cbn [is_prefix].
    destruct (ekey_dec (edge_key e) (edge_key e0)) as [Ee|Ee].
    + rewrite (IH _ _ es Hk), (child_at_key e e0 nd Ee). unfold child.
      destruct (child_at e0 nd); [reflexivity|].
      destruct es; [cbn; tauto|]. rewrite walk_empty by discriminate. reflexivity.
    + split; [auto|]. intros [X|X]; [exact X|discriminate X].
Qed.

Lemma upd_benign es f nd : (forall x, benign (f x)) -> benign (upd es f nd).
Proof. intros Hf. rewrite upd_eq. apply bind_no_crash; [apply Hf|]. intros; exact I. Qed.

Lemma str_ltb_cons x a y b : str_ltb (x :: a) (y :: b) = true <-> x < y \/ (x = y /\ str_ltb a b = true).
Proof.
  cbn. destruct (N.ltb_spec x y) as [L|L]; [split; auto|].
  destruct (N.ltb_spec y x) as [G|G]; split.
  - discriminate.
  - intros [H|[H _]]; lia.
  - intros H. right. split; [lia|exact H].
  - intros [H|[_ H]]; [lia|exact H].
Qed.
Lemma str_ltb_irrefl a : str_ltb a a = false.
Proof. induction a as [|x a IH]; cbn; auto. rewrite N.ltb_irrefl. exact IH. Qed.
Lemma str_ltb_trans a : forall b c, str_ltb a b = true -> str_ltb b c = true -> str_ltb a c = true.
Proof.
  induction a as [|x a IH]; intros [|y b] [|z c]; try discriminate; auto.
  rewrite !str_ltb_cons. intros [H|[-> H]] [G|[-> G]]; [left; lia|left; lia|left; lia|right; split; eauto].
Qed.
Lemma str_ltb_total a : forall b, a <> b -> str_ltb a b = false -> str_ltb b a = true.
Proof.
  induction a as [|x a IH]; intros [|y b]; cbn; try discriminate; auto; try contradiction.
  destruct (N.ltb_spec x y), (N.ltb_spec y x); try lia; try discriminate; auto.
  intros Hne Hf. assert (x = y) by lia. subst y. apply IH; auto. congruence.
Qed.
Lemma str_ltb_neq a b : str_ltb a b = true -> a <> b.
Proof. intros H E. subst. now rewrite str_ltb_irrefl in H. Qed.

Definition vname (pn : list token * node) : str := spell (fst pn).
Definition names_sorted (l : list (list token * node)) : Prop :=
  StronglySorted (fun a b => str_ltb a b = true) (map vname l).

Lemma in_set_assoc {A} key (c : A) k v l : In (key, c) (set_assoc k v l) -> (key = k /\ c = v) \/ In (key, c) l.
Proof.
  induction l as [|[k' v'] l IH]; cbn.
  - intros [E|[]]. inversion E. auto.
  - destruct (str_eqb k' k) eqn:E; cbn.
    + apply str_eqb_eq in E. subst k'. intros [H|H]; [inversion H; auto|auto].
    + intros [H|H]; [auto|]. destruct (IH H) as [X|X]; auto.
Qed.

Lemma in_set_var p c pat n l :
  In (p, c) (set_var pat n l) -> (c = n /\ (p = pat \/ exists c0, In (p, c0) l)) \/ In (p, c) l.
Proof.
  induction l as [|[p0 n0] l IH]; cbn.
  - intros [E|[]]. inversion E. auto.
  - destruct (str_eqb (spell p0) (spell pat)) eqn:E; cbn.
    + intros [H|H]; [inversion H; subst; left; split; auto; right; exists n0; now left|auto].
    + destruct (str_ltb (spell pat) (spell p0)); cbn.
      * intros [H|[H|H]]; [inversion H; auto|auto|auto].
      * intros [H|H]; [auto|]. destruct (IH H) as [[X [Y|[c0 Y]]]|X]; auto. left. split; auto. right. exists c0. now right.
Qed.

Lemma set_var_names pat n l :
  names_sorted l ->
  names_sorted (set_var pat n l) /\
  (forall x, In x (map vname (set_var pat n l)) -> x = spell pat \/ In x (map vname l)).
Proof.
  unfold names_sorted. induction l as [|[p0 n0] l IH]; intros Hs; cbn.
  - split; [repeat constructor|]. intros x [<-|[]]. now left.
  - inversion Hs as [|a l' Hs' Hall]; subst.
    destruct (str_eqb (spell p0) (spell pat)) eqn:E; cbn.
    + split; [constructor; auto|]. intros x H. right. exact H.
    + destruct (str_ltb (spell pat) (spell p0)) eqn:El; cbn.
      * split.
        -- constructor; [constructor; auto|]. constructor; [exact El|].
           eapply Forall_impl; [|exact Hall]. intros y Hy. eapply str_ltb_trans; eauto.
        -- intros x [<-|H]; [now left|right; exact H].
      * destruct (IH Hs') as [IH1 IH2]. split.
        -- constructor; [exact IH1|]. apply Forall_forall. intros x Hx.
           destruct (IH2 x Hx) as [->|Hx'].
           ++ change (str_ltb (spell p0) (spell pat) = true). apply str_ltb_total; auto. apply str_eqb_neq in E. congruence.
           ++ rewrite Forall_forall in Hall. now apply Hall.
        -- intros x [<-|H]; [right; now left|]. destruct (IH2 x H); auto; right; now right.
Qed.

Lemma sorted_find pat c l : names_sorted l -> In (pat, c) l -> find_var (spell pat) l = Some c.
Proof.
  unfold names_sorted. induction l as [|[p0 n0] l IH]; intros Hs Hin; [contradiction|].
  inversion Hs as [|a l' Hs' Hall]; subst. cbn.
  destruct Hin as [E|Hin].
  - inversion E; subst. now rewrite str_eqb_refl.
  - destruct (str_eqb (spell p0) (spell pat)) eqn:E.
    + exfalso. apply str_eqb_eq in E. rewrite Forall_forall in Hall.
      assert (H : str_ltb (vname (p0, n0)) (vname (pat, c)) = true) by (apply Hall; now apply in_map).
      change (str_ltb (spell p0) (spell pat) = true) in H. rewrite E, str_ltb_irrefl in H. discriminate.
    + now apply IH.
Qed.

Lemma nvars_cons k e es : (k + nvars (e :: es) = nvars [e] + k + nvars es)%nat.
Proof. destruct e; cbn; lia. Qed.

Section WF.
(* P: what the patterns of variable edges are known to be *)
Variable P : list token -> Prop.

Inductive WFn : nat -> node -> Prop :=
| WFn_intro k segs vars meths mall :
    (forall key c, In (key, c) segs -> WFn k c) ->
    (forall pat c, In (pat, c) vars -> P pat /\ WFn (S k) c) ->
    names_sorted vars ->
    (forall v m, In (v, m) meths -> length (m_vars m) = k) ->
    (forall m, mall = Some m -> length (m_vars m) = k) ->
    WFn k (Node segs vars meths mall).

Lemma WFn_inv k nd : WFn k nd <->
  (forall key c, In (key, c) (n_segs nd) -> WFn k c) /\
  (forall pat c, In (pat, c) (n_vars nd) -> P pat /\ WFn (S k) c) /\
  names_sorted (n_vars nd) /\
  (forall v m, In (v, m) (n_meths nd) -> length (m_vars m) = k) /\
  (forall m, n_mall nd = Some m -> length (m_vars m) = k).
Proof.
  split.
  - intros H. destruct H. cbn. auto 6.
  - destruct nd. cbn. intros (W1 & W2 & W3 & W4 & W5). now constructor.
Qed.

Lemma WFn_empty k : WFn k empty_node.
Proof. constructor; cbn; try contradiction; try constructor; try discriminate. Qed.

Definition edge_ok (e : edge) : Prop := match e with ELit _ => True | EVar pat => P pat end.

Lemma WFn_child_at k e nd c : WFn k nd -> child_at e nd = Some c -> WFn (nvars [e] + k) c.
Proof.
  intros Hw H. apply WFn_inv in Hw. destruct Hw as (W1 & W2 & _). destruct e as [key|pat]; cbn in H |- *.
  - apply (W1 key c), assoc_in, H.
  - destruct (find_var_in _ _ _ H) as (p' & Hin & _). apply (W2 p' c Hin).
Qed.
Lemma WFn_child k e nd : WFn k nd -> WFn (nvars [e] + k) (child e nd).
Proof. intros Hw. unfold child. destruct (child_at e nd) eqn:E; [eapply WFn_child_at; eauto|apply WFn_empty]. Qed.

Lemma walk_WFn es : forall nd k nd', WFn k nd -> walk_to es nd = Some nd' -> WFn (k + nvars es) nd'.
Proof.
  induction es as [|e es IH]; intros nd k nd' Hw H.
  - injection H as <-. cbn. now rewrite Nat.add_0_r.
  - rewrite walk_cons in H. destruct (child_at e nd) as [c|] eqn:Ec; [|discriminate].
    rewrite nvars_cons. eapply IH; [|exact H]. eapply WFn_child_at; eauto.
Qed.
Lemma leaf_of_WFn nd es k : WFn k nd -> WFn (k + nvars es) (leaf_of nd es).
Proof. intros Hw. unfold leaf_of. destruct (walk_to es nd) eqn:E; [eapply walk_WFn; eauto|apply WFn_empty]. Qed.

Lemma set_child_WFn k e c nd : WFn k nd -> edge_ok e -> WFn (nvars [e] + k) c -> WFn k (set_child e c nd).
Proof.
  intros Hw He Hc. apply WFn_inv in Hw. destruct Hw as (W1 & W2 & W3 & W4 & W5). apply WFn_inv.
  destruct e as [key|pat]; cbn in He, Hc |- *; refine (conj _ (conj _ (conj _ (conj W4 W5)))); auto.
  - intros key2 c2 Hin. destruct (in_set_assoc _ _ _ _ _ Hin) as [[-> ->]|Hin']; [exact Hc|eauto].
  - intros p c0 Hin. destruct (in_set_var _ _ _ _ _ Hin) as [[-> [->|[c1 Hin1]]]|Hin'].
    + split; auto.
    + split; auto. now destruct (W2 p c1 Hin1).
    + eauto.
  - now apply set_var_names.
Qed.

Lemma set_at_WFn es0 : forall l nd k,
  WFn k nd -> Forall edge_ok es0 -> WFn (k + nvars es0) l -> WFn k (set_at es0 l nd).
Proof.
  induction es0 as [|e es0 IH]; intros l nd k Hw Hok Hl; cbn [set_at].
  - cbn in Hl. now rewrite Nat.add_0_r in Hl.
  - inversion Hok as [|? ? He Hok']; subst. rewrite nvars_cons in Hl.
    apply set_child_WFn; auto. apply IH; auto. now apply WFn_child.
Qed.

(* on a structurally well-formed trie the In-based reachability of search is the name-based walk of
   upd, and the patterns met on the way are known patterns *)
Lemma Reach_walk nd es nd' : Reach nd es nd' -> forall k, WFn k nd ->
  walk_to es nd = Some nd' /\ WFn (k + nvars es) nd' /\ Forall edge_ok es.
Proof.
  induction 1 as [nd|nd key c es nd' Ha HR IH|nd pat c es nd' Hin HR IH]; intros k Hw.
  - cbn. split; auto. split; [now rewrite Nat.add_0_r|constructor].
  - destruct (proj1 (WFn_inv _ _) Hw) as (W1 & _). cbn [walk_to nvars]. rewrite Ha.
    destruct (IH k (W1 key c (assoc_in _ _ _ Ha))) as (A & B & C). split; auto. split; auto. constructor; [exact I|exact C].
  - destruct (proj1 (WFn_inv _ _) Hw) as (_ & W2 & W3 & _). cbn [walk_to nvars].
    rewrite (sorted_find _ _ _ W3 Hin). destruct (W2 pat c Hin) as [Pp Wc].
    destruct (IH (S k) Wc) as (A & B & C). split; auto. split; [now rewrite Nat.add_succ_r|constructor; auto].
Qed.

Hypothesis P_ok : forall pat, P pat -> forallb pat_tok_ok pat = true.

Lemma WFn_TrieInv k nd : WFn k nd -> TrieInv nd k.
Proof.
  intros Hw. split.
  - intros es nd' verb m HR HB. destruct (Reach_walk _ _ _ HR k Hw) as (_ & W & _).
    destruct (proj1 (WFn_inv _ _) W) as (_ & _ & _ & W4 & W5). unfold bound_at in HB.
    destruct (assoc verb (n_meths nd')) as [m0|] eqn:Ea.
    + inversion HB; subst. apply (W4 verb m). now apply assoc_in.
    + now apply W5.
  - intros es nd' pat c HR Hin. destruct (Reach_walk _ _ _ HR k Hw) as (_ & W & _).
    destruct (proj1 (WFn_inv _ _) W) as (_ & W2 & _). apply P_ok. now destruct (W2 pat c Hin).
Qed.
End WF.

(* addRule's token walk (Trie.compile) on lexed templates *)
Section Compile.
Variables isLetter isNumber : N -> bool.
Variable resolves : str -> list str -> bool.
Notation compile := (compile resolves).
Notation PSeg := (PSeg isLetter isNumber).
Notation PSegs := (PSegs isLetter isNumber).
Notation Seg := (Seg isLetter isNumber).
Notation Segs := (Segs isLetter isNumber).
Notation FieldPath := (FieldPath isLetter isNumber).
Notation Tmpl := (Tmpl isLetter isNumber).

Lemma PSeg_toks_ok ts b : PSeg ts b -> forallb pat_tok_ok ts = true /\ Forall (fun t => is TVarEnd t = false) ts.
Proof. intros [v Hv| |]; split; repeat constructor. Qed.
Lemma PSegs_toks_ok ts b : PSegs ts b -> forallb pat_tok_ok ts = true /\ Forall (fun t => is TVarEnd t = false) ts.
Proof.
  induction 1 as [ts b G|ts rest b G HS IH].
  - now apply (PSeg_toks_ok ts b).
  - destruct (PSeg_toks_ok _ _ G) as [A1 A2]. destruct IH as [B1 B2]. split.
    + rewrite forallb_app, A1. cbn. exact B1.
    + apply Forall_app. split; auto.
Qed.

Lemma until_varend_app ps rest :
  Forall (fun t => is TVarEnd t = false) ps -> until_varend (ps ++ tClose :: rest) = Some (ps, rest).
Proof. induction 1 as [|t ps Ht Hps IH]; cbn; [reflexivity|]. now rewrite Ht, IH. Qed.

Lemma field_keys_tail tail : DotTail isLetter isNumber tail -> forall acc t rest, is TDot t = false ->
  exists names, field_keys acc (tail ++ t :: rest) = (acc ++ names, t :: rest).
Proof.
  induction 1 as [|v tail Hv Ht IH]; intros acc t rest Hr.
  - exists []. rewrite app_nil_r. cbn. destruct rest; [reflexivity|now rewrite Hr].
  - destruct (IH (acc ++ [v]) t rest Hr) as [names E]. exists (v :: names).
    cbn [app field_keys]. change (is TDot tDot) with true. cbn [tval]. rewrite E. now rewrite <- app_assoc.
Qed.

(* the pattern of a variable edge is a derivation of the segment grammar *)
Definition PatG (pat : list token) : Prop := exists b, PSegs pat b.
Definition edge_gram : edge -> Prop := edge_ok PatG.
Lemma PatG_ok pat : PatG pat -> forallb pat_tok_ok pat = true.
Proof. intros [b H]. now destruct (PSegs_toks_ok _ _ H). Qed.

Definition good_result (r : outcome (list edge * list (list str))) : Prop :=
  match r with
  | Ok (es, vfs) => length vfs = nvars es /\ Forall edge_gram es
  | Err _ => True
  | _ => False
  end.

Lemma good_cons e vf r : edge_gram e -> length vf = nvars [e] -> good_result r ->
  good_result (do r <- r; Ok (e :: fst r, vf ++ snd r)).
Proof.
  intros He Hv Hg. destruct r as [[es vfs]| | |]; cbn in *; auto. destruct Hg as [A B].
  split; [rewrite app_length, Hv, A; now destruct e|now constructor].
Qed.

Lemma compile_seg ts b : Seg ts b -> forall f mid cont,
  good_result (compile f mid cont) -> good_result (compile (S f) mid (tSlash :: ts ++ cont)).
Proof.
  intros [ts' b' G|fp Hfp|fp ps b' Hfp Hps] f mid cont Hg.
  - destruct G as [v Hv| |].
    + now apply (good_cons (ELit ([47] ++ v)) []).
    + apply (good_cons (EVar [tStar]) [[]]); [exists false; apply Ss_one; constructor|reflexivity|exact Hg].
    + apply (good_cons (EVar [tStarStar]) [[]]); [exists true; apply Ss_one; constructor|reflexivity|exact Hg].
  - destruct (tail_of_FieldPath _ _ _ Hfp) as (v & tail & -> & Hv & Ht).
    destruct (field_keys_tail tail Ht [v] tClose cont eq_refl) as [names E].
    cbn [compile app ttyp tSlash tOpen tval]. rewrite <- app_assoc. cbn [app]. rewrite E.
    cbn [app ttyp tClose]. destruct (resolves mid (v :: names)); [|exact I].
    apply (good_cons (EVar [Tok TStar [42]]) [[v] ++ names]); [exists false; apply Ss_one; constructor|reflexivity|exact Hg].
  - destruct (tail_of_FieldPath _ _ _ Hfp) as (v & tail & -> & Hv & Ht).
    destruct (PSegs_toks_ok _ _ Hps) as [_ P2].
    destruct (field_keys_tail tail Ht [v] tEq (ps ++ tClose :: cont) eq_refl) as [names E].
    cbn [compile app ttyp tSlash tOpen tval]. rewrite <- !app_assoc. cbn [app]. rewrite <- app_assoc. cbn [app].
    rewrite E. cbn [app ttyp tEq]. rewrite (until_varend_app ps cont P2).
    destruct (resolves mid (v :: names)); [|exact I].
    apply (good_cons (EVar ps) [[v] ++ names]); [exists b'; exact Hps|reflexivity|exact Hg].
Qed.

Lemma compile_segs_good ss b : Segs ss b -> forall fuel mid tail,
  (forall f, good_result (compile (S f) mid tail)) -> (length ss + 1 < fuel)%nat ->
  good_result (compile fuel mid (tSlash :: ss ++ tail)).
Proof.
  induction 1 as [ts b G|ts rest b G HS IH]; intros fuel mid tail Ht Hf; (destruct fuel as [|f]; [lia|]).
  - apply (compile_seg ts b G). destruct f as [|f']; [lia|apply Ht].
  - rewrite <- app_assoc. cbn [app]. apply (compile_seg ts false G).
    rewrite app_length in Hf. cbn [length] in Hf. apply IH; [exact Ht|lia].
Qed.

Theorem compile_tmpl toks mid : Tmpl toks -> good_result (compile (S (length toks)) mid toks).
Proof.
  intros [ss b HS|ss b v HS Hv]; (apply (compile_segs_good ss b HS); [intros f; cbn; repeat constructor|]);
    cbn [length]; rewrite app_length; cbn; lia.
Qed.
End Compile.

(* what the offer i of a node serves under the verb key; the binding for every verb is kept apart, in n_mall *)
Definition stored (i : list (str * minfo) * option minfo) (key : str) (m : minfo) : Prop :=
  (key = star_verb /\ snd i = Some m) \/ assoc key (fst i) = Some m.

Lemma own_stored v i m : (if str_eqb v star_verb then snd i else assoc v (fst i)) = Some m -> stored i v m.
Proof. unfold stored. destruct (str_eqb v star_verb) eqn:E; [apply str_eqb_eq in E|]; auto. Qed.
Lemma stored_empty key m : ~ stored ([], None) key m.
Proof. intros [[_ H]|H]; cbn in H; discriminate. Qed.

(* Inv speaks of the nodes that exist (info_at); set_at is described on leaf_of, where a missing node
   counts as empty *)
Lemma stored_at nd es key m :
  stored (info (leaf_of nd es)) key m <-> exists i, info_at nd es = Some i /\ stored i key m.
Proof.
  unfold info_at, leaf_of. destruct (walk_to es nd) as [n|]; split.
  - eauto.
  - now intros (i & [= <-] & Hs).
  - intros Hs. now apply stored_empty in Hs.
  - now intros (i & [=] & _).
Qed.

Section Register.
Variables isLetter isNumber : N -> bool.
Variable resolves body_ok resp_ok : str -> list str -> bool.
Notation leaf := (leaf resolves body_ok resp_ok).
Notation add_binding := (add_binding resolves body_ok resp_ok isLetter isNumber).
Notation compile := (compile resolves).
Notation lex_template := (lex_template isLetter isNumber).

Lemma assoc_snoc {A} key (l : list (str * A)) k2 v :
  assoc key (l ++ [(k2, v)]) = match assoc key l with Some x => Some x | None => if str_eqb k2 key then Some v else None end.
Proof. induction l as [|[k' v'] l IH]; cbn; auto. destruct (str_eqb k' key); auto. Qed.
Lemma assoc_app_none {A} k (l : list (str * A)) k2 v : assoc k l = None -> assoc k (l ++ [(k2, v)]) = if str_eqb k2 k then Some v else None.
Proof. intros H. now rewrite assoc_snoc, H. Qed.
Lemma assoc_app_some {A} k (l : list (str * A)) l2 v : assoc k l = Some v -> assoc k (l ++ l2) = Some v.
Proof. induction l as [|[k' v'] l IH]; cbn; [discriminate|]. destruct (str_eqb k' k); auto. Qed.

Lemma conflict_id mid y : conflict mid y = false -> m_id y = mid.
Proof. unfold conflict. intros Hy. apply negb_false_iff in Hy. now apply str_eqb_eq in Hy. Qed.
Lemma conflict_own mid y : m_id y = mid -> conflict mid y = false.
Proof. intros <-. unfold conflict. now rewrite str_eqb_refl. Qed.

Definition Owned (mid : str) (nd : node) : Prop := forall key m, stored (info nd) key m -> m_id m = mid.

(* The two tests of Trie.leaf: the selectors of the binding are usable; the node holds a binding of
   another method that the verb v would meet. *)
Definition selectors_fine (mid : str) (b : brule) : bool :=
  (match b_body b with BField p => resolves mid p && body_ok mid p | _ => true end) &&
  (match b_resp b with [] => true | p => resp_ok mid p end).
Definition foreign (mid : str) (nd : node) (v : str) : bool :=
  match n_mall nd with Some y => conflict mid y | None => false end ||
  if str_eqb v star_verb then existsb (fun kv => conflict mid (snd kv)) (n_meths nd)
  else match assoc v (n_meths nd) with Some y => conflict mid y | None => false end.

(* the three ways the leaf accepts: the method has the verb already, or the binding goes in *)
Inductive LeafOk (mid : str) (b : brule) (vfs : list (list str)) (nd : node) : node -> Prop :=
| LO_same y : (if str_eqb (b_verb b) star_verb then n_mall nd else assoc (b_verb b) (n_meths nd)) = Some y ->
    m_id y = mid -> LeafOk mid b vfs nd nd
| LO_star : b_verb b = star_verb -> n_mall nd = None ->
    LeafOk mid b vfs nd (Node (n_segs nd) (n_vars nd) (n_meths nd) (Some (Build_minfo mid vfs (b_body b) (b_resp b))))
| LO_verb : b_verb b <> star_verb -> assoc (b_verb b) (n_meths nd) = None ->
    LeafOk mid b vfs nd
      (Node (n_segs nd) (n_vars nd) (n_meths nd ++ [(b_verb b, Build_minfo mid vfs (b_body b) (b_resp b))]) (n_mall nd)).

Lemma leaf_cases mid b vfs nd :
  match leaf mid b vfs nd with
  | Ok nd' => selectors_fine mid b = true /\ foreign mid nd (b_verb b) = false /\ LeafOk mid b vfs nd nd'
  | Err _ => selectors_fine mid b = false \/ foreign mid nd (b_verb b) = true
  | _ => False
  end.
Proof.
  unfold Trie.leaf, foreign. fold (selectors_fine mid b). destruct (selectors_fine mid b); cbn [bind]; [|now left].
  destruct (match n_mall nd with Some y => conflict mid y | None => false end) eqn:Ec; [now right|]. cbn [orb].
  destruct (str_eqb (b_verb b) star_verb) eqn:Ev.
  - destruct (existsb _ _); [now right|].
    destruct (n_mall nd) as [y|] eqn:Em; do 2 (split; [reflexivity|]).
    + apply (LO_same _ _ _ _ y); [rewrite Ev; exact Em|now apply conflict_id].
    + apply LO_star; [now apply str_eqb_eq|exact Em].
  - destruct (assoc (b_verb b) (n_meths nd)) as [y|] eqn:Ea.
    + destruct (conflict mid y) eqn:Ec0; [now right|]. do 2 (split; [reflexivity|]).
      apply (LO_same _ _ _ _ y); [rewrite Ev; exact Ea|now apply conflict_id].
    + do 2 (split; [reflexivity|]). apply LO_verb; [now apply str_eqb_neq|exact Ea].
Qed.
Lemma leaf_inv mid b vfs nd nd' : leaf mid b vfs nd = Ok nd' ->
  selectors_fine mid b = true /\ foreign mid nd (b_verb b) = false /\ LeafOk mid b vfs nd nd'.
Proof. intros H. pose proof (leaf_cases mid b vfs nd) as X. now rewrite H in X. Qed.

Lemma leaf_ok mid b vfs nd : is_ok (leaf mid b vfs nd) = selectors_fine mid b && negb (foreign mid nd (b_verb b)).
Proof.
  pose proof (leaf_cases mid b vfs nd) as X. destruct (leaf mid b vfs nd); [destruct X as (-> & -> & _); reflexivity| |contradiction..].
  destruct X as [-> | ->]; [reflexivity|apply eq_sym, andb_false_r].
Qed.

Lemma leaf_keeps mid b vfs : keeps_children (leaf mid b vfs).
Proof. intros nd nd' H. apply leaf_inv in H. now destruct H as (_ & _ & []). Qed.

Lemma leaf_benign mid b vfs nd : benign (leaf mid b vfs nd).
Proof. pose proof (leaf_cases mid b vfs nd) as X. now destruct (leaf mid b vfs nd). Qed.

Lemma leaf_spec mid b vfs nd nd' :
  leaf mid b vfs nd = Ok nd' ->
  (forall key m, stored (info nd') key m ->
     stored (info nd) key m \/ (key = b_verb b /\ m = Build_minfo mid vfs (b_body b) (b_resp b))) /\
  (forall key m, stored (info nd) key m -> stored (info nd') key m) /\
  (exists m, stored (info nd') (b_verb b) m /\ m_id m = mid).
Proof.
  intros H. apply leaf_inv in H. destruct H as (_ & _ & [y Hs Hy|Hv Hm|Hv Ha]); unfold stored, info; cbn [fst snd n_meths n_mall].
  - split; [auto|split; [auto|exists y; split; [exact (own_stored _ (info nd) y Hs)|exact Hy]]].
  - rewrite Hm. repeat split.
    + intros key m [[-> E]|E]; [inversion E; auto|auto].
    + intros key m [[_ E]|E]; [discriminate|auto].
    + eexists. split; [left; eauto|reflexivity].
  - repeat split.
    + intros key m [E|E]; [auto|]. rewrite assoc_snoc in E. destruct (assoc key (n_meths nd)); [auto|].
      destruct (str_eqb (b_verb b) key) eqn:Ek; [|discriminate]. apply str_eqb_eq in Ek. inversion E. auto.
    + intros key m [E|E]; [auto|]. right. rewrite assoc_snoc, E. reflexivity.
    + eexists. split; [right; rewrite assoc_snoc, Ha, str_eqb_refl; reflexivity|reflexivity].
Qed.

Definition overlap (k v : str) : Prop := k = v \/ k = star_verb \/ v = star_verb.
Lemma foreign_owned mid nd v key m :
  foreign mid nd v = false -> assoc star_verb (n_meths nd) = None ->
  stored (info nd) key m -> overlap key v -> m_id m = mid.
Proof.
  unfold foreign. intros Hf Hn Hs Ho. apply orb_false_iff in Hf. destruct Hf as [F1 F2].
  destruct Hs as [[-> Hs]|Hs]; cbn [info fst snd] in Hs.
  - apply conflict_id. now rewrite Hs in F1.
  - destruct (str_eqb v star_verb) eqn:Ev;
      [exact (conflict_id _ _ (proj1 (existsb_false _ _) F2 (key, m) (assoc_in _ _ _ Hs)))|].
    apply str_eqb_neq in Ev. destruct Ho as [-> | [-> | ->]]; [|congruence|contradiction].
    apply conflict_id. now rewrite Hs in F2.
Qed.

Lemma leaf_rejects_conflict mid b vfs nd key m :
  assoc star_verb (n_meths nd) = None ->
  stored (info nd) key m -> m_id m <> mid -> overlap key (b_verb b) -> exists e, leaf mid b vfs nd = Err e.
Proof.
  intros Hn Hs Hne Ho. pose proof (leaf_cases mid b vfs nd) as X.
  destruct (leaf mid b vfs nd); [|eauto|contradiction..].
  destruct X as (_ & F & _). elim Hne. exact (foreign_owned _ _ _ _ _ F Hn Hs Ho).
Qed.

Lemma leaf_WFn (P : list token -> Prop) mid b vfs k nd nd' :
  length vfs = k -> WFn P k nd -> leaf mid b vfs nd = Ok nd' -> WFn P k nd'.
Proof.
  intros Hl Hw H. apply leaf_inv in H. destruct H as (_ & _ & [y Hs Hy|Hv Hm|Hv Ha]); [exact Hw| |];
    apply WFn_inv in Hw; destruct Hw as (W1 & W2 & W3 & W4 & W5); apply WFn_inv; cbn [n_segs n_vars n_meths n_mall].
  - refine (conj W1 (conj W2 (conj W3 (conj W4 _)))). intros m [= <-]. exact Hl.
  - refine (conj W1 (conj W2 (conj W3 (conj _ W5)))). intros v m Hin.
    apply in_app_or in Hin. destruct Hin as [Hin|[[= <- <-]|[]]]; [eauto|exact Hl].
Qed.

Lemma leaf_nostar mid b vfs nd nd' :
  leaf mid b vfs nd = Ok nd' -> assoc star_verb (n_meths nd) = None -> assoc star_verb (n_meths nd') = None.
Proof.
  intros H Hn. apply leaf_inv in H. destruct H as (_ & _ & [y Hs Hy|Hv Hm|Hv Ha]); cbn [n_meths]; auto.
  rewrite assoc_snoc, Hn. apply str_eqb_neq in Hv. now rewrite Hv.
Qed.

Lemma leaf_spec_at mid b vfs es0 l root :
  leaf mid b vfs (leaf_of root es0) = Ok l ->
  (forall es key m, stored (info (leaf_of (set_at es0 l root) es)) key m ->
     stored (info (leaf_of root es)) key m \/
     (keys es = keys es0 /\ key = b_verb b /\ m = Build_minfo mid vfs (b_body b) (b_resp b))) /\
  (forall es key m, stored (info (leaf_of root es)) key m -> stored (info (leaf_of (set_at es0 l root) es)) key m) /\
  (exists m, stored (info (leaf_of (set_at es0 l root) es0)) (b_verb b) m /\ m_id m = mid).
Proof.
  intros Hl. destruct (leaf_spec _ _ _ _ _ Hl) as (S1 & S2 & S3).
  assert (E : forall es, info (leaf_of (set_at es0 l root) es) =
                if list_eq_dec ekey_dec (keys es) (keys es0) then info l else info (leaf_of root es))
    by (intros es; apply info_set_at, (leaf_keeps _ _ _ _ _ Hl)).
  split; [|split].
  - intros es key m. rewrite E. destruct (list_eq_dec _ _ _) as [Ek|]; [|auto].
    rewrite (leaf_of_keys root es es0 Ek). intros Hs. destruct (S1 key m Hs) as [|[]]; auto.
  - intros es key m. rewrite E. destruct (list_eq_dec _ _ _) as [Ek|]; [|auto].
    rewrite (leaf_of_keys root es es0 Ek). apply S2.
  - rewrite E. destruct (list_eq_dec _ _ _); [exact S3|contradiction].
Qed.

Definition compiled (mid : str) (b : brule) (es : list edge) (vfs : list (list str)) : Prop :=
  exists toks, lex_template (b_tmpl b) = Ok toks /\ compile (S (length toks)) mid toks = Ok (es, vfs).

Lemma compiled_fun mid b e1 v1 e2 v2 : compiled mid b e1 v1 -> compiled mid b e2 v2 -> e1 = e2 /\ v1 = v2.
Proof.
  intros (t1 & A1 & A2) (t2 & B1 & B2). rewrite A1 in B1. inversion B1; subst t2. rewrite A2 in B2. inversion B2. auto.
Qed.
Lemma compiled_good mid b es vfs :
  compiled mid b es vfs -> length vfs = nvars es /\ Forall (edge_gram isLetter isNumber) es.
Proof.
  intros (toks & El & Ec).
  pose proof (compile_tmpl isLetter isNumber resolves toks mid (proj1 (lex_template_sound _ _ _ _ El))) as Hg.
  now rewrite Ec in Hg.
Qed.
Lemma compiled_add mid b es vfs root :
  compiled mid b es vfs -> add_binding mid root b = upd es (leaf mid b vfs) root.
Proof. intros (toks & El & Ec). unfold Trie.add_binding. rewrite El. cbn [bind]. now rewrite Ec. Qed.

Lemma add_binding_ok mid root b root' :
  add_binding mid root b = Ok root' ->
  exists es vfs l, compiled mid b es vfs /\ leaf mid b vfs (leaf_of root es) = Ok l /\ root' = set_at es l root.
Proof.
  unfold Trie.add_binding. intros H.
  apply bind_ok in H. destruct H as (toks & El & H). apply bind_ok in H. destruct H as ([es vfs] & Ec & H).
  destruct (upd_inv _ _ _ _ H) as (l & Hl & ->). exists es, vfs, l. split; [exists toks|]; auto.
Qed.

(* registration of one binding never panics and never runs out of fuel, whatever the template text *)
Theorem add_binding_benign mid root b : benign (add_binding mid root b).
Proof.
  unfold Trie.add_binding. apply bind_no_crash; [apply lex_template_benign|]. intros toks El.
  apply bind_no_crash; [|intros r _; apply upd_benign, leaf_benign].
  pose proof (compile_tmpl isLetter isNumber resolves toks mid (proj1 (lex_template_sound _ _ _ _ El))) as Hg.
  now destruct (compile _ _ _) as [[]| | |].
Qed.

(* what every trie that registrations can reach satisfies; L is the history of accepted bindings *)
Notation PatG := (PatG isLetter isNumber).
Notation edge_gram := (edge_gram isLetter isNumber).

Definition regs := list (str * brule).

Record Inv (L : regs) (root : node) : Prop := {
  inv_wf : WFn PatG 0 root;
  inv_nostar : forall es i, info_at root es = Some i -> assoc star_verb (fst i) = None;
  (* provenance: every stored binding was registered, for the method that owns it, under the verb it
     is stored under, and sits where its template leads (same edges up to the spelling of patterns) *)
  inv_prov : forall es i key m, info_at root es = Some i -> stored i key m ->
      exists mid b es', In (mid, b) L /\ m_id m = mid /\ key = b_verb b /\ m_body m = b_body b /\
                        compiled mid b es' (m_vars m) /\ keys es = keys es';
  (* presence: every registered binding is still served, by its own method *)
  inv_present : forall mid b, In (mid, b) L ->
      exists es vfs i m, compiled mid b es vfs /\ info_at root es = Some i /\ stored i (b_verb b) m /\ m_id m = mid
}.

Lemma Inv_empty : Inv [] empty_node.
Proof.
  constructor.
  - apply WFn_empty.
  - intros es i H. apply info_at_empty in H. subst. reflexivity.
  - intros es i key m H Hs. apply info_at_empty in H. subst. now apply stored_empty in Hs.
  - intros mid b [].
Qed.

Lemma Inv_TrieInv L root : Inv L root -> TrieInv root 0.
Proof. intros HI. apply (WFn_TrieInv PatG (PatG_ok isLetter isNumber)), (inv_wf _ _ HI). Qed.

Lemma inv_nostar_leaf L root es : Inv L root -> assoc star_verb (n_meths (leaf_of root es)) = None.
Proof. intros HI. exact (nostar_leaf root es (inv_nostar _ _ HI)). Qed.

Lemma present_at root mid b es vfs m :
  compiled mid b es vfs -> stored (info (leaf_of root es)) (b_verb b) m -> m_id m = mid ->
  exists es vfs i m, compiled mid b es vfs /\ info_at root es = Some i /\ stored i (b_verb b) m /\ m_id m = mid.
Proof. intros Hc Hs Hm. apply stored_at in Hs. destruct Hs as (i & Ei & Hs). exists es, vfs, i, m. auto. Qed.

Theorem Inv_step L root mid b root' :
  Inv L root -> add_binding mid root b = Ok root' -> Inv ((mid, b) :: L) root'.
Proof.
  intros HI H. destruct (add_binding_ok _ _ _ _ H) as (es0 & vfs & l & Hc & Hl & ->).
  destruct (compiled_good _ _ _ _ Hc) as [Hlen Hg].
  destruct (leaf_spec_at _ _ _ _ _ root Hl) as (S1 & S2 & S3).
  constructor.
  - apply set_at_WFn; [exact (inv_wf _ _ HI)|exact Hg|].
    eapply leaf_WFn; [exact Hlen| |exact Hl]. apply leaf_of_WFn, (inv_wf _ _ HI).
  - intros es i Hi. rewrite (info_leaf_of _ _ _ Hi), (info_set_at _ _ _ es (leaf_keeps _ _ _ _ _ Hl)).
    destruct (list_eq_dec _ _ _); [apply (leaf_nostar _ _ _ _ _ Hl)|]; now apply (inv_nostar_leaf L).
  - intros es i key m Hi Hs. rewrite (info_leaf_of _ _ _ Hi) in Hs.
    destruct (S1 es key m Hs) as [Hs0|(Ek & -> & ->)].
    + apply stored_at in Hs0. destruct Hs0 as (i0 & Ei & Hs0).
      destruct (inv_prov _ _ HI es i0 key m Ei Hs0) as (mid' & b' & es' & A & R). exists mid', b', es'. split; [now right|exact R].
    + exists mid, b, es0. split; [now left|]. auto 6.
  - intros mid' b' [[= <- <-]|Hin].
    + destruct S3 as (m & Hs & Hm). exact (present_at _ _ _ _ _ _ Hc Hs Hm).
    + destruct (inv_present _ _ HI mid' b' Hin) as (es1 & vfs1 & i1 & m1 & C1 & Ei & Hs1 & Hm1).
      apply (present_at _ _ _ es1 vfs1 m1 C1); [|exact Hm1]. apply S2, stored_at. eauto.
Qed.

Notation add_additional := (add_additional resolves body_ok resp_ok isLetter isNumber).
Notation add_rule := (add_rule resolves body_ok resp_ok isLetter isNumber).
Notation add_rules := (add_rules resolves body_ok resp_ok isLetter isNumber).
Notation append_handler := (append_handler resolves body_ok resp_ok isLetter isNumber).
Notation register_methods := (register_methods resolves body_ok resp_ok isLetter isNumber).
Notation register_service := (register_service resolves body_ok resp_ok isLetter isNumber).

Definition rule_bindings (r : hrule) : list brule := h_main r :: h_adds r.
Definition decl_bindings (d : mdecl) : list brule :=
  rule_bindings (implicit_rule (d_id d)) ++ flat_map rule_bindings (d_config d) ++
  match d_annot d with Some r => rule_bindings r | None => [] end.

(* Whatever of a method registration succeeds has added the method's bindings one by one, in order. *)
Fixpoint add_bindings (mid : str) (root : node) (bs : list brule) : outcome node :=
  match bs with [] => Ok root | b :: r => do r1 <- add_binding mid root b; add_bindings mid r1 r end.

Lemma add_bindings_app mid bs1 : forall bs2 root,
  add_bindings mid root (bs1 ++ bs2) = do r <- add_bindings mid root bs1; add_bindings mid r bs2.
Proof. induction bs1 as [|b bs1 IH]; intros; cbn; auto. destruct (add_binding mid root b); cbn; auto. Qed.

Lemma add_additional_ok mid adds : forall root root',
  add_additional mid root adds = Ok root' -> add_bindings mid root adds = Ok root'.
Proof.
  induction adds as [|a adds IH]; intros root root' H; cbn in *; auto.
  destruct (b_nested a); [discriminate|]. apply bind_ok in H. destruct H as (r1 & -> & H). cbn. auto.
Qed.
Lemma add_rule_ok mid r root root' : add_rule mid root r = Ok root' -> add_bindings mid root (rule_bindings r) = Ok root'.
Proof. intros H. apply bind_ok in H. destruct H as (r1 & E & H). cbn. rewrite E. cbn. now apply add_additional_ok. Qed.
Lemma add_rules_ok mid rs : forall root root',
  add_rules mid root rs = Ok root' -> add_bindings mid root (flat_map rule_bindings rs) = Ok root'.
Proof.
  induction rs as [|r rs IH]; intros root root' H; cbn [Trie.add_rules flat_map] in *; auto.
  apply bind_ok in H. destruct H as (r1 & E & H). rewrite add_bindings_app, (add_rule_ok _ _ _ _ E). cbn. auto.
Qed.
Lemma append_handler_ok d root root' :
  append_handler root d = Ok root' -> add_bindings (d_id d) root (decl_bindings d) = Ok root'.
Proof.
  unfold Trie.append_handler, decl_bindings. intros H.
  destruct (add_rule (d_id d) root (implicit_rule (d_id d))) as [r1| | |] eqn:E1; try discriminate.
  apply bind_ok in H. destruct H as (r2 & E2 & H).
  rewrite add_bindings_app, (add_rule_ok _ _ _ _ E1). cbn [bind].
  rewrite add_bindings_app, (add_rules_ok _ _ _ _ E2). cbn [bind].
  destruct (d_annot d); [now apply add_rule_ok|exact H].
Qed.

Lemma add_bindings_Inv mid bs : forall L root root',
  Inv L root -> add_bindings mid root bs = Ok root' -> Inv (rev (map (pair mid) bs) ++ L) root'.
Proof.
  induction bs as [|b bs IH]; intros L root root' HI H; cbn in *; [now inversion H; subst|].
  apply bind_ok in H. destruct H as (r1 & E & H). rewrite <- app_assoc. apply (IH _ r1); auto. eapply Inv_step; eauto.
Qed.

(* the registered bindings of a list of method declarations *)
Definition decls_regs (ds : list mdecl) (x : str * brule) : Prop :=
  exists d, In d ds /\ fst x = d_id d /\ In (snd x) (decl_bindings d).

Lemma register_methods_Inv : forall ds L root root',
  Inv L root -> register_methods root ds = Ok root' ->
  exists L', Inv (L' ++ L) root' /\ forall x, In x L' -> decls_regs ds x.
Proof.
  induction ds as [|d ds IH]; intros L root root' HI H; cbn in H.
  - inversion H; subst. exists []. split; auto. intros x [].
  - apply bind_ok in H. destruct H as (r1 & E1 & H).
    destruct (IH _ _ _ (add_bindings_Inv _ _ _ _ _ HI (append_handler_ok _ _ _ E1)) H) as (B & HI2 & HB).
    exists (B ++ rev (map (pair (d_id d)) (decl_bindings d))). split; [now rewrite <- app_assoc|].
    intros x Hx. apply in_app_or in Hx. destruct Hx as [Hx|Hx].
    + destruct (HB x Hx) as (d' & Hd & E). exists d'. split; [now right|auto].
    + apply in_rev, in_map_iff in Hx. destruct Hx as (b & <- & Hb). exists d. cbn. auto.
Qed.

(* registration is all-or-nothing: a failed registerService leaves the trie it was given *)
Lemma register_service_failed root ds root' : register_service root ds = (root', false) -> root' = root.
Proof. unfold Trie.register_service. destruct (register_methods root ds); intros H; inversion H; reflexivity. Qed.

Lemma register_service_Inv L root ds : Inv L root ->
  exists L', Inv (L' ++ L) (fst (register_service root ds)) /\ forall x, In x L' -> decls_regs ds x.
Proof.
  intros HI. unfold Trie.register_service. destruct (register_methods root ds) as [r1| | |] eqn:E; cbn [fst].
  1: exact (register_methods_Inv ds L root r1 HI E).
  all: exists []; split; [exact HI|intros x []].
Qed.

(* no rule text can make registration panic or run dry: only a method whose own implicit
   /Service/Method rule is refused does (appendHandler's panic("bug")) *)
Lemma add_additional_benign mid : forall adds root, benign (add_additional mid root adds).
Proof.
  induction adds as [|a adds IH]; intros root; cbn; [exact I|]. destruct (b_nested a); [exact I|].
  apply bind_no_crash; [apply add_binding_benign|]. intros r1 _. apply IH.
Qed.
Lemma add_rule_benign mid root r : benign (add_rule mid root r).
Proof. apply bind_no_crash; [apply add_binding_benign|]. intros r1 _. apply add_additional_benign. Qed.
Lemma add_rules_benign mid : forall rs root, benign (add_rules mid root rs).
Proof.
  induction rs as [|r rs IH]; intros root; cbn; [exact I|].
  apply bind_no_crash; [apply add_rule_benign|]. intros r1 _. apply IH.
Qed.
Theorem append_handler_total root d : benign (append_handler root d).
Proof.
  unfold Trie.append_handler. pose proof (add_rule_benign (d_id d) root (implicit_rule (d_id d))) as B.
  destruct (add_rule (d_id d) root (implicit_rule (d_id d))) as [r1|e| |]; try contradiction; [|exact I].
  apply bind_no_crash; [apply add_rules_benign|]. intros r2 _.
  destruct (d_annot d); [apply add_rule_benign|exact I].
Qed.

End Register.
