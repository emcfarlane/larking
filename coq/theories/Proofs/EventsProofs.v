(* Proofs about Model/Events.v (C18). With `legacy = false` every operation is total and the stats flag
   only selects whether its events are reported (`uniform`); the theorems about `serve false` follow
   from that and from what the unary wrapper's interceptor layer returns (`icpt_phase`). *)
From Larking Require Import Base.GoSem Spec.EventsSpec Model.Events.
Local Open Scope nat_scope.

Lemma arun_app q l1 l2 : arun q (l1 ++ l2) = match arun q l1 with Some q' => arun q' l2 | None => None end.
Proof.
  revert q. induction l1 as [|e l1 IH]; intros q; cbn [arun app]; [reflexivity|].
  destruct (astep q e); [apply IH|reflexivity].
Qed.

Lemma in_payloads_app l1 l2 : in_payloads (l1 ++ l2) = in_payloads l1 ++ in_payloads l2.
Proof. induction l1 as [|e l1 IH]; cbn; [reflexivity|]. destruct e; cbn; rewrite ?IH; reflexivity. Qed.
Lemma out_payloads_app l1 l2 : out_payloads (l1 ++ l2) = out_payloads l1 ++ out_payloads l2.
Proof. induction l1 as [|e l1 IH]; cbn; [reflexivity|]. destruct e; cbn; rewrite ?IH; reflexivity. Qed.
Lemma end_codes_app l1 l2 : end_codes (l1 ++ l2) = end_codes l1 ++ end_codes l2.
Proof. induction l1 as [|e l1 IH]; cbn; [reflexivity|]. destruct e; cbn; rewrite ?IH; reflexivity. Qed.

Lemma pair_eqb_refl a : pair_eqb a a = true.
Proof. unfold pair_eqb. now rewrite !Nat.eqb_refl. Qed.
Lemma name_eqb_refl m : name_eqb m m = true.
Proof. apply bytes_eqb_refl. Qed.

Lemma be32_length n : length (be32 n) = 4.
Proof. reflexivity. Qed.

Lemma slice5_frame (p : bytes) : slice_from 5 (frame p) = Ok p.
Proof.
  unfold frame, be32, slice_from.
  cbn [app length Nat.leb skipn]. reflexivity.
Qed.

Definition with_stats (b : bool) (c : cfg) : cfg := mkCfg (c_http c) (c_cs c) (c_ss c) b (c_legacy c) (c_body c).
Definition sel {A} (b : bool) (l : list A) : list A := if b then l else [].

Lemma with_stats_id c : with_stats (c_stats c) c = c.
Proof. destruct c; reflexivity. Qed.

Lemma sel_app {A} b (l1 l2 : list A) : sel b l1 ++ sel b l2 = sel b (l1 ++ l2).
Proof. destruct b; reflexivity. Qed.

Lemma grpc_out_stats_ok c p : grpc_out_stats c p = Ok (emit c [out_payload p]).
Proof. unfold grpc_out_stats, emit. rewrite slice5_frame. destruct (c_stats c); reflexivity. Qed.

Lemma grpc_in_stats_ok c p : c_legacy c = false -> grpc_in_stats c p = Ok (emit c [in_payload p]).
Proof. intros L. unfold grpc_in_stats, emit. rewrite L. destruct (c_stats c); reflexivity. Qed.

Definition mid (s : st) : astate := if hsent s then AH else AN.
Definition inv (s : st) : Prop := scount s = 0 \/ hsent s = true.
Definition lens (l : list bytes) : list (nat * nat) := map payload_stat (map (@length N) l).

(* what a stats handler sees between s and s': the automaton follows sentHeader, every delivered
   message has its InPayload, every written message its OutPayload, no End *)
Definition good_on (s : st) (e : list ev) (s' : st) : Prop :=
  inv s ->
  inv s' /\ arun (mid s) e = Some (mid s') /\
  lens (dlv s') = lens (dlv s) ++ in_payloads e /\
  lens (outm s') = lens (outm s) ++ out_payloads e /\
  end_codes e = [].

Lemma lens_app a b : lens (a ++ b) = lens a ++ lens b.
Proof. unfold lens. now rewrite !map_app. Qed.

Lemma good_on_refl s : good_on s [] s.
Proof. intros I. repeat split; auto; cbn; now rewrite app_nil_r. Qed.

Lemma good_on_trans s e1 s1 e2 s2 : good_on s e1 s1 -> good_on s1 e2 s2 -> good_on s (e1 ++ e2) s2.
Proof.
  intros G1 G2 I. destruct (G1 I) as (I1 & A1 & D1 & O1 & E1). destruct (G2 I1) as (I2 & A2 & D2 & O2 & E2).
  repeat split; auto.
  - rewrite arun_app, A1. exact A2.
  - rewrite D2, D1, in_payloads_app, app_assoc. reflexivity.
  - rewrite O2, O1, out_payloads_app, app_assoc. reflexivity.
  - rewrite end_codes_app, E1, E2. reflexivity.
Qed.

(* An operation of the fixed code never fails below the level of Go errors; the state and result it
   produces do not depend on whether a stats handler is installed, which sees the events e0. *)
Definition uniform {R} (f : cfg -> outcome (list ev * st * R)) (c : cfg) (s : st) : Prop :=
  exists e0 s' r, (forall b, f (with_stats b c) = Ok (sel b e0, s', r)) /\ good_on s e0 s'.

(* One leaf of the case analysis of `step`, once the fields of c and s it reads are constructors: both
   runs compute, and so do the automaton and the projections of the events; where the automaton's
   state still hangs on a variable (header out or not), that variable is split. *)
Ltac leaf :=
  eexists; eexists; eexists; split;
  [intros b; destruct b; cbn; reflexivity
  |intros I; unfold inv, mid, lens in *; cbn in *; rewrite ?map_app, ?app_nil_r; cbn;
   repeat match goal with |- context [if ?b then AH else AN] => is_var b; destruct b end;
   cbn; repeat split; auto].

Lemma step_uniform c a s : c_legacy c = false -> uniform (fun c => step c a s) c s.
Proof.
  intros L. destruct c as [h cs ss stt lg bd]; cbn in L; subst lg. destruct s as [q re dn hsn sc om dl hl].
  unfold uniform, with_stats; cbn [c_http c_cs c_ss c_stats c_legacy c_body].
  destruct a as [|p| |]; cbn [step].
  - unfold do_recv; cbn [c_http]. destruct h.
    + unfold http_recv, http_deliver, emit; cbn [c_body c_cs c_stats reof inq].
      destruct bd; [destruct re; [|destruct cs; (destruct q as [|[p v] rest]; [|destruct v])]|destruct re]; leaf.
    + unfold grpc_recv; cbn [done inq].
      destruct dn; [|destruct q as [|[p v] rest]; [|destruct v]]; leaf.
  - unfold do_send; cbn [c_http]. destruct h.
    + unfold http_send, emit; cbn [c_stats scount hsent].
      (* a first message after which the header is still unsent is excluded by inv *)
      destruct hsn; [cbn [negb]; rewrite andb_false_r; leaf|destruct sc; [leaf|]]. cbn [Nat.eqb andb negb].
      eexists; eexists; eexists; split; [intros b; destruct b; cbn; reflexivity|intros [I|I]; discriminate I].
    + unfold grpc_send; cbn [done hsent]. destruct dn; [leaf|].
      exists ((if hsn then [] else [EOutHeader]) ++ [out_payload p]). eexists. eexists. split.
      * intros b. rewrite grpc_out_stats_ok. unfold emit; cbn [c_stats]. destruct b, hsn; reflexivity.
      * intros I; unfold inv, mid, lens in *; cbn in *. destruct hsn; cbn; rewrite ?map_app, ?app_nil_r; cbn; repeat split; auto.
  - unfold do_header; cbn [c_http]. destruct h.
    + unfold http_header, emit; cbn [c_stats hsent]. destruct hsn; leaf.
    + unfold grpc_header, emit; cbn [c_stats hsent done]. destruct dn; [|destruct hsn]; leaf.
  - leaf.
Qed.

Lemma lstep_uniform c a s : c_legacy c = false -> uniform (fun c => lstep c a s) c s.
Proof.
  intros L. destruct (step_uniform c a s L) as (e0 & s' & r & H & G).
  exists e0, (add_log r s'), r. split; [intros b; unfold lstep; now rewrite H|exact G].
Qed.

Lemma run_acts_good c acts final s : c_legacy c = false -> uniform (fun c => run_acts c acts final s) c s.
Proof.
  intros L. revert s. induction acts as [|a rest IH]; intros s.
  - exists [], s, final. split; [intros b; destruct b; reflexivity|apply good_on_refl].
  - destruct (lstep_uniform c a s L) as (e1 & s1 & r & H1 & G1).
    destruct (IH s1) as (e2 & s2 & code & H2 & G2).
    destruct r as [| |k]; [exists (e1 ++ e2), s2, code|exists (e1 ++ e2), s2, code|exists e1, s1, k];
      (split; [intros b; cbn [run_acts]; rewrite H1, ?H2, ?sel_app; reflexivity|eauto using good_on_trans]).
Qed.

(* A unary handler has the context only: nothing is written, and the call stays alive unless the
   handler cancels it. *)
Lemma unary_lstep c a s : unary_act a = true ->
  exists e1 s1 r1, lstep c a s = Ok (e1, s1, r1) /\ outm s1 = outm s /\ (a <> ACancel -> done s1 = done s).
Proof.
  destruct a; try discriminate; intros _; unfold lstep; cbn [step].
  - unfold do_header, http_header, grpc_header.
    destruct (c_http c), (done s) eqn:DN, (hsent s); cbn; eexists; eexists; eexists; repeat split; auto.
  - eexists; eexists; eexists; repeat split; auto. intros N. now destruct N.
Qed.

Lemma unary_acts_keep c final pre : forall s e s' code,
  run_acts c (filter unary_act pre) final s = Ok (e, s', code) ->
  outm s' = outm s /\ (no_cancel pre = true -> done s' = done s).
Proof.
  induction pre as [|a pre IH]; intros s e s' code; cbn [filter].
  - cbn. intros E; inversion E; subst. split; auto.
  - assert (NC : no_cancel (a :: pre) = true -> a <> ACancel /\ no_cancel pre = true)
      by (unfold no_cancel; cbn [forallb]; intros H; apply andb_true_iff in H; split; [intros ->; now destruct H|apply H]).
    destruct (unary_act a) eqn:UA.
    + destruct (unary_lstep c a s UA) as (e1 & s1 & r1 & H1 & O1 & D1). cbn [run_acts]. rewrite H1.
      destruct r1; [destruct (run_acts c _ final s1) as [[[e2 s2] c2]| | |] eqn:H2; try discriminate ..|];
        intros E; inversion E; subst; [destruct (IH _ _ _ _ H2) as [O D] ..|]; (split; [congruence|]);
        intros N; destruct (NC N) as [NA NP]; rewrite ?D by exact NP; auto.
    + intros H. destruct (IH _ _ _ _ H) as [O D]. split; [exact O|]. intros N. apply D, NC, N.
Qed.

Lemma stream_handler_uniform c md acts final s : c_legacy c = false ->
  exists e0 s' code, (forall b, stream_handler (with_stats b c) md acts final s = Ok (sel b e0, s', code, Some code)) /\
                     good_on s e0 s'.
Proof.
  intros L. destruct (run_acts_good c acts final s L) as (e & s1 & code & H & G).
  destruct md as [|k|k|m|m];
    [exists e, s1, code|exists [], s, k|exists e, s1, k|exists e, s1, code|exists e, s1, code];
    (split; [intros b; cbn [stream_handler]; rewrite ?H; destruct b; reflexivity|auto using good_on_refl]).
Qed.

(* The interceptor layer of a unary method, the `ir` of unary_handler: events, state, the code and
   the reply it returns (None = a nil reply). *)
Definition icpt_phase (c : cfg) (md : imode) (pre : list action) (reply : bytes) (final : nat) (s1 : st)
  : outcome (list ev * st * nat * option bytes) :=
  let user := run_acts c (filter unary_act pre) final s1 in
  match md with
  | IPass => match user with Ok (e, s2, code) => Ok (e, s2, code, if Nat.eqb code 0 then Some reply else None)
             | Err x => Err x | Panic x => Panic x | OutOfFuel => OutOfFuel end
  | IReject k => Ok ([], s1, k, None)
  | IOverride k => match user with Ok (e, s2, _) => Ok (e, s2, k, None)
             | Err x => Err x | Panic x => Panic x | OutOfFuel => OutOfFuel end
  | IReplace m => match user with Ok (e, s2, code) => Ok (e, s2, code, if Nat.eqb code 0 then Some m else None)
             | Err x => Err x | Panic x => Panic x | OutOfFuel => OutOfFuel end
  | IAnswer m => Ok ([], s1, 0, Some m)
  end.

Lemma unary_handler_eq c md pre reply final s :
  unary_handler c md pre reply final s =
  bind (lstep c ARecv s) (fun x =>
    match x with
    | (e1, s1, ROk) =>
        bind (icpt_phase c md pre reply final s1) (fun '(e2, s2, code, rep) =>
          if Nat.eqb code 0 then
            bind (match rep with Some p => do_send c p s2 | None => do_send_nil c s2 end)
                 (fun '(e3, s3, r) => Ok (e1 ++ e2 ++ e3, s3, code_of r, Some code))
          else Ok (e1 ++ e2, s2, code, Some code))
    | (e1, s1, r) => Ok (e1, s1, code_of r, None)
    end).
Proof. reflexivity. Qed.

Lemma icpt_phase_uniform c md pre reply final s1 : c_legacy c = false ->
  exists e0 s2 code rep,
    (forall b, icpt_phase (with_stats b c) md pre reply final s1 = Ok (sel b e0, s2, code, rep)) /\ good_on s1 e0 s2.
Proof.
  intros L. destruct (run_acts_good c (filter unary_act pre) final s1 L) as (e & s2 & code & U & G).
  destruct md as [|k|k|m|m];
    [exists e, s2, code, (if Nat.eqb code 0 then Some reply else None)|exists [], s1, k, None|exists e, s2, k, None
    |exists e, s2, code, (if Nat.eqb code 0 then Some m else None)|exists [], s1, 0, (Some m)];
    (split; [intros b; unfold icpt_phase; rewrite ?U; destruct b; reflexivity|auto using good_on_refl]).
Qed.

(* It writes nothing; it leaves the call alive if the handler does not cancel or is not called; with a
   nil error it returns reply_of, or nil in the modes imode_ok excludes. *)
Lemma icpt_phase_keeps c md pre reply final s1 e2 s2 code rep :
  icpt_phase c md pre reply final s1 = Ok (e2, s2, code, rep) ->
  outm s2 = outm s1 /\
  (no_cancel pre = true \/ (exists m, md = IAnswer m) -> done s2 = done s1) /\
  (code = 0 -> rep = Some (reply_of md reply) \/ rep = None /\ ~ imode_ok true md).
Proof.
  unfold icpt_phase. destruct md as [|k|k|m|m]; cbn [reply_of].
  1,3,4: destruct (run_acts c _ final s1) as [[[e s] cd]| | |] eqn:H2; try discriminate;
    destruct (unary_acts_keep _ _ _ _ _ _ _ H2) as [O D].
  all: intros E; inversion E; subst; (split; [auto|split]).
  all: try (intros [NC|[m' M]]; [auto|discriminate]); try (intros _; reflexivity).
  all: try (intros ->; left; reflexivity); try (left; reflexivity).
  all: intros ->; right; split; [reflexivity|intros OK; exact (OK eq_refl eq_refl)].
Qed.

Lemma send_ok c p s :
  c_http c = true \/ done s = false ->
  exists e s', do_send c p s = Ok (e, s', ROk) /\ outm s' = outm s ++ [p] /\ hlog s' = hlog s /\ dlv s' = dlv s.
Proof.
  intros H. unfold do_send. destruct (c_http c) eqn:HT.
  - unfold http_send. eexists; eexists; split; [reflexivity|]. destruct (Nat.eqb (scount s) 0 && negb (hsent s)); repeat split.
  - destruct H as [H|H]; [discriminate|]. unfold grpc_send. rewrite H, grpc_out_stats_ok.
    eexists; eexists; split; [reflexivity|]. repeat split.
Qed.

(* SendMsg(nil) panics, except on a cancelled gRPC call *)
Lemma send_nil_cases c s :
  do_send_nil c s = Panic PNil \/ c_http c = false /\ done s = true /\ do_send_nil c s = Ok ([], s, RErr 1).
Proof.
  unfold do_send_nil, http_send_nil, grpc_send_nil. destruct (c_http c); [left; reflexivity|].
  destruct (done s); [right; repeat split|left; reflexivity].
Qed.

(* Either the handler runs the same whatever the stats flag, or it panics in SendMsg(nil). *)
Lemma handler_uniform c md h s : c_legacy c = false ->
  (exists e0 s' code ir, (forall b, handler (with_stats b c) md h s = Ok (sel b e0, s', code, ir)) /\ good_on s e0 s')
  \/ (~ imode_ok (is_unary h) md /\ forall b, handler (with_stats b c) md h s = Panic PNil).
Proof.
  intros L. destruct h as [pre reply final|acts final]; cbn [handler is_unary].
  2:{ left. destruct (stream_handler_uniform c md acts final s L) as (e0 & s' & code & H). eauto 6. }
  destruct (lstep_uniform c ARecv s L) as (e1 & s1 & r & H1 & G1).
  destruct (icpt_phase_uniform c md pre reply final s1 L) as (e2 & s2 & code & rep & H2 & G2).
  pose proof (good_on_trans _ _ _ _ _ G1 G2) as G12.
  destruct r as [| |k].
  2,3: left; do 4 eexists; (split; [intros b; rewrite unary_handler_eq, H1; reflexivity|exact G1]).
  destruct (Nat.eqb code 0) eqn:EC.
  2:{ left. exists (e1 ++ e2), s2, code, (Some code). split; [|exact G12].
      intros b. rewrite unary_handler_eq, H1. cbn [bind]. rewrite H2. cbn [bind]. rewrite EC, sel_app. reflexivity. }
  destruct rep as [p|].
  - destruct (step_uniform c (ASend p) s2 L) as (e3 & s3 & r3 & H3 & G3). cbn [step] in H3.
    left. exists (e1 ++ e2 ++ e3), s3, (code_of r3), (Some code). split; [|rewrite app_assoc; eapply good_on_trans; eauto].
    intros b. rewrite unary_handler_eq, H1. cbn [bind]. rewrite H2. cbn [bind]. rewrite EC, H3. cbn [bind]. rewrite !sel_app. reflexivity.
  - assert (N : ~ imode_ok true md).
    { apply Nat.eqb_eq in EC. destruct (icpt_phase_keeps _ _ _ _ _ _ _ _ _ _ (H2 true)) as (_ & _ & [?|[_ N]]); [exact EC|discriminate|exact N]. }
    assert (E : forall b, unary_handler (with_stats b c) md pre reply final s =
                         bind (do_send_nil c s2) (fun '(e3, s3, r) => Ok (sel b e1 ++ sel b e2 ++ e3, s3, code_of r, Some code))).
    { intros b. rewrite unary_handler_eq, H1. cbn [bind]. rewrite H2. cbn [bind]. rewrite EC. reflexivity. }
    destruct (send_nil_cases c s2) as [P|(_ & _ & K)].
    + right. split; [exact N|]. intros b. rewrite E, P. reflexivity.
    + left. exists (e1 ++ e2), s2, 1, (Some code). split; [|exact G12].
      intros b. rewrite E, K. cbn [bind code_of]. rewrite app_nil_r, sel_app. reflexivity.
Qed.

Lemma handler_good c md h s e s' herr ir :
  c_legacy c = false -> handler c md h s = Ok (e, s', herr, ir) ->
  exists e0, e = sel (c_stats c) e0 /\ good_on s e0 s'.
Proof.
  intros L H. rewrite <- (with_stats_id c) in H.
  destruct (handler_uniform c md h s L) as [(e0 & s1 & code & ir' & U & G)|[_ P]]; [|rewrite P in H; discriminate].
  rewrite U in H. inversion H; subst. eauto.
Qed.

(* `serve` reads its scenario through these components only *)
Definition respond (routed http : bool) (c : cfg) (nm : mname) (call : list icall) (h : hfull) : outcome result :=
  if negb routed then Ok (mkResult [] [] [] (if http then Some 5 else None) [] [] None 0)
  else
    match h with
    | Ok (e, s, herr, ir) =>
        Ok (mkResult (match ir with Some _ => call | None => [] end)
              (emit c [ETag nm; EInHeader nm; EBegin (c_cs c) (c_ss c)] ++ e ++
                 (if c_http c then emit c [EOutTrailer; EEnd herr]
                  else (if hsent s then [] else emit c [EOutHeader]) ++ emit c [EOutTrailer; EEnd herr]))
              (outm s) (Some herr) (hlog s) (dlv s) ir herr)
    | Err x => Err x | Panic x => Panic x | OutOfFuel => OutOfFuel
    end.

Lemma serve_eq legacy sc :
  serve legacy sc =
  respond (s_routed sc) (is_http (s_proto sc)) (cfg_of legacy sc) (s_name sc) (if s_icpt sc then [the_call sc] else [])
    (handler (cfg_of legacy sc) (eff_mode sc) (s_hs sc) (st0 sc)).
Proof. reflexivity. Qed.

Lemma serve_routed legacy sc r :
  serve legacy sc = Ok r -> s_routed sc = true ->
  exists e s herr ir,
    handler (cfg_of legacy sc) (eff_mode sc) (s_hs sc) (st0 sc) = Ok (e, s, herr, ir) /\
    r = mkResult (match ir with Some _ => if s_icpt sc then [the_call sc] else [] | None => [] end)
          (emit (cfg_of legacy sc) [ETag (s_name sc); EInHeader (s_name sc); EBegin (s_cs sc) (s_ss sc)] ++ e ++
             (if c_http (cfg_of legacy sc) then emit (cfg_of legacy sc) [EOutTrailer; EEnd herr]
              else (if hsent s then [] else emit (cfg_of legacy sc) [EOutHeader]) ++ emit (cfg_of legacy sc) [EOutTrailer; EEnd herr]))
          (outm s) (Some herr) (hlog s) (dlv s) ir herr.
Proof.
  rewrite serve_eq. intros E R. rewrite R in E. unfold respond in E. cbn [negb] in E.
  destruct (handler (cfg_of legacy sc) (eff_mode sc) (s_hs sc) (st0 sc)) as [[[[e s] herr] ir]| | |]; try discriminate.
  inversion E; subst. exists e, s, herr, ir. split; reflexivity.
Qed.

Theorem trace_wf sc r :
  serve false sc = Ok r -> s_routed sc = true -> s_stats sc = true ->
  trace_ok (s_name sc) (s_cs sc) (s_ss sc) (map (@length N) (r_dlv r)) (map (@length N) (r_replies r)) (r_herr r) (r_events r) = true
  /\ r_status r = Some (r_herr r).
Proof.
  intros E R ST. destruct (serve_routed _ _ _ E R) as (e & s & herr & ir & H & ->).
  cbn [r_dlv r_replies r_herr r_events r_status]. split; [|reflexivity].
  assert (ST' : c_stats (cfg_of false sc) = true) by exact ST.
  destruct (handler_good (cfg_of false sc) _ _ _ _ _ _ _ eq_refl H) as (e0 & -> & G). rewrite ST'. cbn [sel].
  destruct G as (I1 & A1 & D1 & O1 & E1); [left; reflexivity|].
  unfold emit. rewrite ST'.
  set (post := if c_http (cfg_of false sc) then [EOutTrailer; EEnd herr]
               else (if hsent s then [] else [EOutHeader]) ++ [EOutTrailer; EEnd herr]).
  assert (P1 : arun (mid s) post = Some AE)
    by (unfold post, mid; destruct (c_http (cfg_of false sc)), (hsent s); reflexivity).
  assert (P2 : in_payloads post = [] /\ out_payloads post = [] /\ end_codes post = [herr])
    by (unfold post; destruct (c_http (cfg_of false sc)), (hsent s); repeat split; reflexivity).
  destruct P2 as (P2 & P3 & P4).
  unfold trace_ok. cbn [app]. rewrite !andb_true_iff. repeat split.
  - unfold accepts. cbn [arun astep]. rewrite arun_app. cbn [mid st0 hsent] in A1. rewrite A1, P1. reflexivity.
  - cbn [head_ok]. rewrite !name_eqb_refl, !Bool.eqb_reflx. reflexivity.
  - cbn [in_payloads]. rewrite in_payloads_app, P2, app_nil_r.
    cbn [st0 dlv lens map app] in D1. unfold lens in D1. rewrite <- D1. apply list_eqb_refl, pair_eqb_refl.
  - cbn [out_payloads]. rewrite out_payloads_app, P3, app_nil_r.
    cbn [st0 outm lens map app] in O1. unfold lens in O1. rewrite <- O1. apply list_eqb_refl, pair_eqb_refl.
  - cbn [end_codes]. rewrite end_codes_app, E1, P4. cbn. now rewrite Nat.eqb_refl.
Qed.

Lemma unrouted_silent legacy sc r :
  serve legacy sc = Ok r -> s_routed sc = false -> r_calls r = [] /\ r_events r = [] /\ r_replies r = [].
Proof. unfold serve. intros E R. rewrite R in E. cbn in E. inversion E; subst. repeat split. Qed.

Lemma no_stats_no_events sc r :
  serve false sc = Ok r -> s_stats sc = false -> r_events r = [].
Proof.
  intros E ST. destruct (s_routed sc) eqn:R; [|eapply unrouted_silent; eauto].
  destruct (serve_routed _ _ _ E R) as (e & s & herr & ir & H & ->). cbn [r_events].
  assert (ST' : c_stats (cfg_of false sc) = false) by exact ST.
  destruct (handler_good (cfg_of false sc) _ _ _ _ _ _ _ eq_refl H) as (e0 & -> & _).
  unfold emit. rewrite ST'. destruct (c_http (cfg_of false sc)), (hsent s); reflexivity.
Qed.

Lemma cfg_of_stats sc : cfg_of false sc = with_stats (s_stats sc) (cfg_of false sc).
Proof. destruct sc; reflexivity. Qed.

Theorem serve_total sc :
  imode_ok (is_unary (s_hs sc)) (eff_mode sc) -> exists r, serve false sc = Ok r.
Proof.
  intros OK. rewrite serve_eq, cfg_of_stats.
  destruct (handler_uniform (cfg_of false sc) (eff_mode sc) (s_hs sc) (st0 sc) eq_refl)
    as [(e0 & s' & code & ir & U & _)|[N _]]; [|contradiction].
  rewrite U. unfold respond. destruct (s_routed sc); eexists; reflexivity.
Qed.

Theorem transparent sc :
  eff_mode sc = IPass ->
  exists r r0, serve false sc = Ok r /\ serve false (plain sc) = Ok r0 /\
    client_view r = client_view r0 /\ r_hlog r = r_hlog r0 /\ r_dlv r = r_dlv r0 /\ r_herr r = r_herr r0.
Proof.
  intros M. rewrite serve_eq, cfg_of_stats, M.
  change (serve false (plain sc))
    with (respond (s_routed sc) (is_http (s_proto sc)) (with_stats false (cfg_of false sc)) (s_name sc) []
            (handler (with_stats false (cfg_of false sc)) IPass (s_hs sc) (st0 sc))).
  destruct (handler_uniform (cfg_of false sc) IPass (s_hs sc) (st0 sc) eq_refl)
    as [(e0 & s' & code & ir & U & _)|[N _]]; [|exfalso; apply N; intros _; exact I].
  rewrite !U. unfold respond.
  destruct (s_routed sc); eexists; eexists; (split; [reflexivity|]); (split; [reflexivity|]); repeat split.
Qed.

Lemma calls_ok_the_call sc : calls_ok (is_unary (s_hs sc)) (s_name sc) (s_cs sc) (s_ss sc) [the_call sc] = true.
Proof.
  unfold calls_ok, the_call, expected_call. destruct (is_unary (s_hs sc)); cbn;
    rewrite name_eqb_refl, ?Bool.eqb_reflx; reflexivity.
Qed.

Lemma calls_shape sc r :
  serve false sc = Ok r -> s_routed sc = true ->
  r_calls r = match r_iret r with Some _ => if s_icpt sc then [the_call sc] else [] | None => [] end
  /\ r_status r = Some (r_herr r).
Proof. intros E R. destruct (serve_routed _ _ _ E R) as (e & s & herr & ir & H & ->). split; reflexivity. Qed.

Lemma stream_iret sc r :
  serve false sc = Ok r -> s_routed sc = true -> is_unary (s_hs sc) = false -> r_iret r = Some (r_herr r).
Proof.
  intros E R U. destruct (serve_routed _ _ _ E R) as (e & s & herr & ir & H & ->). cbn [r_iret r_herr].
  destruct (s_hs sc) as [pre reply final|acts final]; [discriminate|]. cbn [handler] in H.
  destruct (stream_handler_uniform (cfg_of false sc) (eff_mode sc) acts final (st0 sc) eq_refl) as (e0 & s' & code & K & _).
  rewrite cfg_of_stats, K in H. now inversion H.
Qed.

(* the decode of a unary method / the first RecvMsg: one entry in the handler's log *)
Lemma recv_first sc :
  exists e s1 x, lstep (cfg_of false sc) ARecv (st0 sc) = Ok (e, s1, x) /\
    (x = ROk <-> first_ok sc = true) /\ outm s1 = [] /\ done s1 = false /\ hlog s1 = [x].
Proof.
  destruct sc as [pr cs ss nm rt rb rq hs md ic stt].
  unfold lstep, first_ok, cfg_of, st0, req_has_body; cbn [step s_proto s_cs s_ss s_stats s_rule_body s_reqs is_http].
  unfold do_recv; cbn [c_http].
  destruct (is_http pr).
  - unfold http_recv, http_deliver; cbn [c_body c_cs reof inq].
    destruct rb; cbn [andb];
      [destruct cs; (destruct rq as [|[p v] rest]; cbn [is_nil negb];
                     [|try destruct p; cbn [is_nil negb]; try destruct v])|];
      eexists; eexists; eexists; (split; [reflexivity|]); cbn; repeat split; auto; try discriminate; try congruence.
  - unfold grpc_recv; cbn [done inq]. destruct rq as [|[p v] rest]; [|destruct v];
      [| rewrite grpc_in_stats_ok by reflexivity |];
      eexists; eexists; eexists; (split; [reflexivity|]); cbn; repeat split; auto; try discriminate; try congruence.
Qed.

(* A unary method: the interceptor is reached iff the request message could be decoded; a non-OK
   code it returns is the client's status and nothing is sent; OK means the client gets exactly the
   message the interceptor layer returned (reply_of: its own in the modes IReplace / IAnswer, the
   handler's otherwise). On gRPC SendMsg fails once the call is cancelled, hence the side condition;
   an interceptor that answers without calling the handler (IAnswer) cannot be cancelled by it. *)
Theorem once_unary sc r pre reply final :
  serve false sc = Ok r -> s_routed sc = true -> s_hs sc = HUnary pre reply final ->
  (first_ok sc = false -> r_iret r = None /\ r_calls r = [] /\ r_replies r = []) /\
  (first_ok sc = true -> exists k, r_iret r = Some k /\
     (k <> 0 -> r_status r = Some k /\ r_replies r = []) /\
     (k = 0 -> s_proto sc = PHttp \/ no_cancel pre = true \/ (exists m, eff_mode sc = IAnswer m) ->
      r_status r = Some 0 /\ r_replies r = [reply_of (eff_mode sc) reply])).
Proof.
  intros E R HS. destruct (serve_routed _ _ _ E R) as (e & s & herr & ir & H & ->).
  cbn [r_iret r_calls r_replies r_status].
  rewrite HS in H. cbn [handler] in H. rewrite unary_handler_eq in H.
  destruct (recv_first sc) as (e1 & s1 & x & H1 & FX & O1 & D1 & _). rewrite H1 in H. cbn [bind] in H.
  destruct x as [| |kx].
  2,3: inversion H; subst; (split; [intros _; repeat split; auto|]); intros F; apply FX in F; discriminate.
  split; [intros F; destruct FX as [FX _]; rewrite (FX eq_refl) in F; discriminate|]. intros _.
  apply bind_ok in H. destruct H as ([[[e2 s2] code] rep] & H2 & H).
  destruct (icpt_phase_keeps _ _ _ _ _ _ _ _ _ _ H2) as (O2 & D2 & RP). rewrite O1 in O2. rewrite D1 in D2.
  exists code. destruct (Nat.eqb code 0) eqn:EC.
  2:{ inversion H; subst. split; [reflexivity|]. split; [intros _; split; auto|]. intros ->. discriminate. }
  apply Nat.eqb_eq in EC. subst code. apply bind_ok in H. destruct H as ([[e3 s3] r3] & H3 & H). inversion H; subst.
  split; [reflexivity|]. split; [congruence|]. intros _ HC.
  assert (DN : c_http (cfg_of false sc) = true \/ done s2 = false).
  { destruct HC as [P|[NC|A]]; [left; cbn; now rewrite P|right; auto..]. }
  destruct (RP eq_refl) as [->|[-> _]];
    [|destruct (send_nil_cases (cfg_of false sc) s2) as [P|(HT & DN' & _)]; [congruence|destruct DN; congruence]].
  destruct (send_ok _ (reply_of (eff_mode sc) reply) _ DN) as (e4 & s4 & H4 & O4 & _).
  rewrite H4 in H3. inversion H3; subst. rewrite O4, O2. split; reflexivity.
Qed.

Lemma no_icpt_no_calls sc r : serve false sc = Ok r -> s_icpt sc = false -> r_calls r = [].
Proof.
  intros E IC. destruct (s_routed sc) eqn:R; [|eapply unrouted_silent; eauto].
  destruct (calls_shape _ _ E R) as [-> _]. rewrite IC. destruct (r_iret r); reflexivity.
Qed.

Theorem once sc r :
  serve false sc = Ok r -> s_routed sc = true -> s_icpt sc = true ->
  (r_iret r <> None -> calls_ok (is_unary (s_hs sc)) (s_name sc) (s_cs sc) (s_ss sc) (r_calls r) = true) /\
  (r_iret r = None -> r_calls r = []) /\
  (is_unary (s_hs sc) = false -> exists k, r_iret r = Some k /\ r_status r = Some k) /\
  (forall pre reply final, s_hs sc = HUnary pre reply final ->
     (first_ok sc = false -> r_iret r = None /\ r_replies r = []) /\
     (first_ok sc = true -> exists k, r_iret r = Some k /\
        (k <> 0 -> r_status r = Some k /\ r_replies r = []) /\
        (k = 0 -> s_proto sc = PHttp \/ no_cancel pre = true \/ (exists m, s_imode sc = IAnswer m) ->
         r_status r = Some 0 /\ r_replies r = [reply_of (s_imode sc) reply]))).
Proof.
  intros E R IC. assert (EM : eff_mode sc = s_imode sc) by (unfold eff_mode; now rewrite IC).
  destruct (calls_shape _ _ E R) as [CS ST]. split; [|split; [|split; [|intros pre reply final H; split]]].
  - intros NN. rewrite CS. destruct (r_iret r); [|congruence]. rewrite IC. apply calls_ok_the_call.
  - intros N. rewrite CS, N. reflexivity.
  - intros U. exists (r_herr r). split; [eapply stream_iret; eauto|exact ST].
  - intros F. destruct (once_unary _ _ _ _ _ E R H) as [A _]. destruct (A F) as (X & _ & Y). split; assumption.
  - intros F. destruct (once_unary _ _ _ _ _ E R H) as [_ B]. rewrite EM in B. exact (B F).
Qed.

Theorem silent sc r :
  serve false sc = Ok r ->
  (s_routed sc = false -> r_calls r = [] /\ r_events r = [] /\ r_replies r = []) /\
  (s_stats sc = false -> r_events r = []) /\
  (s_icpt sc = false -> r_calls r = []).
Proof.
  intros E. split; [|split].
  - exact (unrouted_silent false sc r E).
  - exact (no_stats_no_events sc r E).
  - exact (no_icpt_no_calls sc r E).
Qed.
