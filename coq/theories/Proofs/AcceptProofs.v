(* Acceptance is order independent too: if one order of a list of pairwise distinct bindings is
   accepted, every permutation is. *)
From Larking Require Import Base.GoSem Model.Lexer Model.Trie Proofs.TrieProofs Proofs.RoutingProofs Proofs.OrderProofs.
From Coq Require Import Permutation.
Local Open Scope N_scope.

Section Accept.
Variables isLetter isNumber : N -> bool.
Variable resolves body_ok resp_ok : str -> list str -> bool.

Notation Inv := (Inv isLetter isNumber resolves).
Notation InvX := (InvX isLetter isNumber resolves).
Notation compiled := (compiled isLetter isNumber resolves).
Notation add_binding := (add_binding resolves body_ok resp_ok isLetter isNumber).
Notation leaf := (leaf resolves body_ok resp_ok).
Notation build_from := (build_from isLetter isNumber resolves body_ok resp_ok).
Notation Distinct := (Distinct isLetter isNumber resolves).
Notation at_node := (at_node isLetter isNumber resolves).

Notation accept_binding := (accept_binding isLetter isNumber resolves body_ok resp_ok).

Definition fine (x : str * brule) : Prop :=
  (exists es vfs, compiled (fst x) (snd x) es vfs) /\ selectors_fine resolves body_ok resp_ok (fst x) (snd x) = true.

(* two bindings that meet at one node under overlapping verbs belong to one method *)
Definition compat (x y : str * brule) : Prop :=
  forall ex vx ey vy, compiled (fst x) (snd x) ex vx -> compiled (fst y) (snd y) ey vy -> keys ex = keys ey ->
    overlap (b_verb (snd y)) (b_verb (snd x)) -> fst y = fst x.

Lemma overlap_sym a b : overlap a b -> overlap b a.
Proof. unfold overlap. intros [H|[H|H]]; auto. Qed.
Lemma compat_sym x y : compat x y -> compat y x.
Proof. intros H ey vy ex vx Cy Cx E O. symmetry. apply (H ex vx ey vy); auto. now apply overlap_sym. Qed.

(* what the acceptance of one binding tells about it and about everything registered before *)
Lemma step_facts L root x r1 :
  InvX L root -> add_binding (fst x) root (snd x) = Ok r1 -> fine x /\ forall y, In y L -> compat x y.
Proof.
  intros HX H. destruct x as [mid b]. cbn [fst snd] in *.
  destruct (add_binding_ok isLetter isNumber resolves body_ok resp_ok _ _ _ _ H) as (es0 & vfs & l & Hc & Hl & _).
  destruct (leaf_inv _ _ _ _ _ _ _ _ Hl) as (Hf & Hn & _).
  split; [split; [eauto|exact Hf]|].
  intros y Hy ex vx ey vy Cx Cy Ek Ho. destruct (compiled_fun _ _ _ _ _ _ _ _ _ Cx Hc) as [-> ->].
  apply (foreign_owned _ _ _ (b_verb (snd y)) (mk_of y vy) Hn (inv_nostar_leaf _ _ _ _ _ es0 (invx_inv _ _ _ _ _ HX))); [|exact Ho].
  apply (invx_info_leaf _ _ _ _ _ _ _ _ HX). exists y, ey, vy. auto.
Qed.

(* a fine binding compatible with everything registered is accepted *)
Lemma step_accept L root x :
  InvX L root -> fine x -> (forall y, In y L -> compat x y) ->
  exists r1, add_binding (fst x) root (snd x) = Ok r1.
Proof.
  intros HX [(es & vfs & Hc) Hsel] Hcompat. destruct x as [mid b]. cbn [fst snd] in *.
  apply andb_true_iff in Hsel. destruct Hsel as [Hb Hr].
  apply (accept_binding root mid b es vfs Hc); auto.
  apply owned_no_foreign; [apply (invx_nodup_leaf _ _ _ _ _ _ HX)|]. intros key m Hs Ho.
  apply (invx_info_leaf _ _ _ _ _ _ _ _ HX) in Hs. destruct Hs as (y & ey & vy & A & B & C & <- & ->).
  apply (Hcompat y A es vfs ey vy Hc B); [now symmetry|exact Ho].
Qed.

Lemma compat_refl x : compat x x.
Proof. intros ex vx ey vy _ _ _ _. reflexivity. Qed.

(* acceptance of a list, described without reference to its order *)
Lemma build_accepted_iff l : forall L0 root,
  InvX L0 root -> Distinct (rev l ++ L0) ->
  ((exists r, build_from root l = Ok r) <->
   (forall x, In x l -> fine x) /\ (forall x y, In x l -> In y (l ++ L0) -> compat x y)).
Proof.
  induction l as [|x l IH]; intros L0 root HX HD; cbn [OrderProofs.build_from].
  - split; [intros _; split; intros x; contradiction|eauto].
  - cbn [rev] in HD. rewrite <- app_assoc in HD. cbn [app] in HD.
    assert (HDx : Distinct (x :: L0)) by (eapply Distinct_sub; [|exact HD]; intros z Hz; apply in_or_app; now right).
    split.
    + intros [r H]. apply bind_ok in H. destruct H as (r1 & E1 & H).
      destruct (step_facts L0 root x r1 HX E1) as [Fx Cx]. destruct x as [mid b].
      pose proof (InvX_step isLetter isNumber resolves body_ok resp_ok L0 root mid b r1 HX HDx E1) as HX1.
      destruct (proj1 (IH _ _ HX1 HD) (ex_intro _ r H)) as [F C]. split.
      * intros y [<-|Hy]; auto.
      * intros y z [<-|Hy] Hz.
        -- cbn in Hz. destruct Hz as [<-|Hz]; [apply compat_refl|].
           apply in_app_or in Hz. destruct Hz as [Hz|Hz]; [|now apply Cx].
           apply compat_sym, (C z (mid, b) Hz). apply in_or_app. right. now left.
        -- apply (C y z Hy). cbn in Hz. destruct Hz as [<-|Hz]; [apply in_or_app; right; now left|].
           apply in_app_or in Hz. apply in_or_app. destruct Hz as [Hz|Hz]; [now left|right; now right].
    + intros [F C]. destruct (step_accept L0 root x HX (F x (or_introl eq_refl))) as [r1 E1].
      { intros y Hy. apply C; [now left|right; apply in_or_app; now right]. }
      rewrite E1. cbn [bind]. destruct x as [mid b].
      pose proof (InvX_step isLetter isNumber resolves body_ok resp_ok L0 root mid b r1 HX HDx E1) as HX1.
      apply (IH _ _ HX1 HD). split.
      * intros y Hy. apply F. now right.
      * intros y z Hy Hz. apply C; [now right|].
        apply in_app_or in Hz. destruct Hz as [Hz|[<-|Hz]]; [right; apply in_or_app; now left|now left|right; apply in_or_app; now right].
Qed.

(* ... hence inherited by every list of members of an accepted list *)
Lemma build_incl l l' r : Distinct l -> incl l' l -> build_from empty_node l = Ok r -> exists r', build_from empty_node l' = Ok r'.
Proof.
  intros HD Hi H.
  assert (D : forall k, incl k l -> Distinct (rev k ++ [])).
  { intros k Hk. eapply Distinct_sub; [|exact HD]. intros x Hx. rewrite app_nil_r in Hx. apply Hk. now apply in_rev. }
  destruct (proj1 (build_accepted_iff l [] empty_node (InvX_empty _ _ _) (D l (incl_refl l))) (ex_intro _ r H)) as [F C].
  apply (build_accepted_iff l' [] empty_node (InvX_empty _ _ _) (D l' Hi)). rewrite app_nil_r in *.
  split; [intros x Hx; apply F|intros x y Hx Hy; apply C]; now apply Hi.
Qed.

(* acceptance does not depend on the order either *)
Theorem accept_perm l1 l2 r1 :
  Permutation l1 l2 -> NoDup l1 -> Distinct l1 -> build_from empty_node l1 = Ok r1 ->
  exists r2, build_from empty_node l2 = Ok r2.
Proof.
  intros HP _ HD. apply build_incl; [exact HD|]. intros x. apply Permutation_in, Permutation_sym, HP.
Qed.

End Accept.
