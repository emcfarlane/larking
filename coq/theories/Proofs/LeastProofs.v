(* Precedence, exactly: among all the bindings that cover a request, path.search answers with the one
   stored at the LEAST covering edge path -- in the lexicographic order on edge sequences in which, at
   each position, a literal edge precedes every variable edge and variable edges are ordered by the
   text of their pattern (Go's string order on variable.name, which is how p.variables is sorted).
   "Literal beats wildcard" and "the answer does not depend on registration order" are corollaries.
   The premise "every candidate's captures convert" is needed and is stated as such; without it the
   statement is false (least_edge_path_refuted, served_refuted: concrete tries), and what remains
   true is proved as least_edge_path_partial.
   [cands] computes the candidates of a request (sound and complete for Cand); Module Instances
   evaluates it on concrete tries: the satisfiable case and the refutations above. *)
From Larking Require Import Base.GoSem Model.Lexer Model.Trie Model.Match Spec.Route
  Proofs.LexerProofs Proofs.MatchProofs Proofs.TrieProofs Proofs.RoutingProofs.

(* Two literal edges never need ordering: a literal edge that covers the next two tokens is spelled by
   them (cand_long below), so two covering paths never differ in a literal against a literal. *)
Inductive edge_lt : edge -> edge -> Prop :=
| EL_lit_var k p : edge_lt (ELit k) (EVar p)
| EL_var_var p q : str_ltb (spell p) (spell q) = true -> edge_lt (EVar p) (EVar q).

(* the first difference decides. A proper prefix is NOT comparable with its extensions: two covering
   paths of one token list are never a proper prefix of one another (cover_no_prefix), and the main
   theorem shows the answer comparable with every candidate, so nothing is lost. *)
Inductive path_lt : list edge -> list edge -> Prop :=
| PL_here e e' es es' : edge_lt e e' -> path_lt (e :: es) (e' :: es')
| PL_next e es es' : path_lt es es' -> path_lt (e :: es) (e :: es').

Lemma edge_lt_irrefl e : ~ edge_lt e e.
Proof.
  intros H. destruct e as [k|p]; inversion H as [|p0 q0 Hs]; subst.
  rewrite str_ltb_irrefl in Hs. discriminate.
Qed.
Lemma edge_lt_trans a b c : edge_lt a b -> edge_lt b c -> edge_lt a c.
Proof.
  intros H1 H2. destruct H1 as [k p|p q Hpq]; inversion H2 as [|p0 q0 Hqc]; subst; constructor.
  eapply str_ltb_trans; eauto.
Qed.
Lemma path_lt_irrefl es : ~ path_lt es es.
Proof.
  induction es as [|e es IH]; intros H; inversion H as [e0 e1 es0 es1 He|e0 es0 es1 Hp]; subst.
  - now apply (edge_lt_irrefl e).
  - now apply IH.
Qed.
Lemma path_lt_trans a b : path_lt a b -> forall c, path_lt b c -> path_lt a c.
Proof.
  induction 1 as [e e' es es' He|e es es' Hp IH]; intros c H2;
    inversion H2 as [e0 e1 es0 es1 He2|e0 es0 es1 Hp2]; subst.
  - apply PL_here. eapply edge_lt_trans; eauto.
  - now apply PL_here.
  - now apply PL_here.
  - apply PL_next. now apply IH.
Qed.
Lemma path_lt_asym a b : path_lt a b -> ~ path_lt b a.
Proof. intros H1 H2. apply (path_lt_irrefl a). eapply path_lt_trans; eauto. Qed.
Lemma path_le_antisym a b : a = b \/ path_lt a b -> b = a \/ path_lt b a -> a = b.
Proof. intros [E|H1] [E'|H2]; auto. exfalso. eapply path_lt_asym; eauto. Qed.
Lemma path_lt_app pre a b : path_lt a b -> path_lt (pre ++ a) (pre ++ b).
Proof. intros H. induction pre as [|e pre IH]; cbn; auto. now apply PL_next. Qed.

(* For a fixed pattern and token list the capture split is unique.  No well-formedness of the pattern
   is needed: MatchPat is the greedy reading variable.index implements ("*" up to the next separator,
   "**" up to the next verb separator), so the split is a function of the pattern and the tokens. *)
Lemma MatchPat_split_unique pat c z c' z' :
  MatchPat pat c z -> MatchPat pat c' z' -> c ++ z = c' ++ z' -> c = c' /\ z = z'.
Proof.
  intros M M' E. apply var_index_complete in M. apply var_index_complete in M'.
  rewrite E in M. rewrite M in M'. inversion M'; auto.
Qed.

(* a covering path determines its captures and no extension of it covers the same tokens *)
Lemma MatchEdges_prefix es toks caps : MatchEdges es toks caps ->
  forall ext caps', MatchEdges (es ++ ext) toks caps' -> ext = [] /\ caps = caps'.
Proof.
  induction 1 as [toks Hl|t0 t1 rest es caps _ IH|pat t0 c z es caps Ht Hne HP _ IH]; intros ext caps' M2; cbn in M2.
  - inversion M2 as [|t0 t1 rest es0 caps0|pat t0 c z es0 caps0 _ Hne]; subst; auto; cbn in Hl; try lia.
    destruct (c ++ z); [contradiction|]. cbn in Hl. lia.
  - inversion M2; subst. eauto.
  - inversion M2 as [| |? ? c' z' ? caps0 _ _ HP' M2' Epat Etoks]; subst.
    destruct (MatchPat_split_unique _ _ _ _ _ HP HP') as [-> ->]; auto.
    destruct (IH _ _ M2') as [-> ->]. auto.
Qed.

Lemma nth_error_rev {A} (l : list A) : forall j, j < length l -> nth_error (rev l) j = nth_error l (length l - S j).
Proof.
  induction l as [|a l IH]; intros j Hj; cbn [length] in *; [lia|]. cbn [rev].
  destruct (Nat.eq_dec j (length l)) as [->|Hne].
  - rewrite nth_error_app2 by (rewrite rev_length; lia). rewrite rev_length, Nat.sub_diag.
    replace (S (length l) - S (length l)) with 0 by lia. reflexivity.
  - rewrite nth_error_app1 by (rewrite rev_length; lia). rewrite IH by lia.
    replace (S (length l) - S j) with (S (length l - S j)) by lia. reflexivity.
Qed.
Lemma combine_snoc {A B} (l : list A) : forall (a : list B) x y,
  nth_error l (length a) = Some y -> combine l (a ++ [x]) = combine l a ++ [(y, x)].
Proof.
  induction l as [|h l IH]; intros a x y H.
  - destruct (length a); discriminate.
  - destruct a as [|b a]; cbn in *.
    + inversion H; subst. now destruct l.
    + now rewrite (IH a x y H).
Qed.
Lemma forallb_combine_app {A B} (f : A * B -> bool) (l : list A) : forall (a b : list B),
  forallb f (combine l (a ++ b)) = true -> forallb f (combine l a) = true.
Proof.
  induction l as [|h l IH]; intros a b H; [reflexivity|].
  destruct a as [|x a]; [reflexivity|]. cbn in *. apply andb_true_iff in H. destruct H as [H1 H2].
  rewrite H1. cbn. eapply IH; eauto.
Qed.

Lemma sorted_in_functional l pat c c' : names_sorted l -> In (pat, c) l -> In (pat, c') l -> c = c'.
Proof.
  intros Hs H1 H2. pose proof (sorted_find _ _ _ Hs H1) as F1. pose proof (sorted_find _ _ _ Hs H2) as F2.
  congruence.
Qed.
Lemma sorted_cons_lt p0 n0 l pat c : names_sorted ((p0, n0) :: l) -> In (pat, c) l -> str_ltb (spell p0) (spell pat) = true.
Proof.
  unfold names_sorted. cbn [map]. intros Hs Hin. inversion Hs as [|a l' Hs' Hall]; subst.
  rewrite Forall_forall in Hall. apply (Hall (vname (pat, c))). now apply in_map.
Qed.
Lemma sorted_tail p0 n0 l : names_sorted ((p0, n0) :: l) -> names_sorted l.
Proof. unfold names_sorted. cbn [map]. intros Hs. now inversion Hs. Qed.
Lemma sorted_split pre p n post : names_sorted (pre ++ (p, n) :: post) ->
  (forall p' n', In (p', n') pre -> str_ltb (spell p') (spell p) = true) /\
  (forall p' n', In (p', n') post -> str_ltb (spell p) (spell p') = true).
Proof.
  induction pre as [|[p0 n0] pre IH]; cbn [app]; intros Hs.
  - split; [intros p' n' []|]. intros p' n' Hin. eapply sorted_cons_lt; eauto.
  - destruct (IH (sorted_tail _ _ _ Hs)) as [A B]. split; [|exact B].
    intros p' n' [E|Hin]; [|eauto]. injection E as <- <-. eapply sorted_cons_lt; eauto. apply in_elt.
Qed.

Definition SortedBelow (nd : node) : Prop := forall es nd', Reach nd es nd' -> names_sorted (n_vars nd').
Lemma SortedBelow_lit nd key c : SortedBelow nd -> assoc key (n_segs nd) = Some c -> SortedBelow c.
Proof. intros S Ha es nd' HR. apply (S (ELit key :: es)). eapply R_lit; eauto. Qed.
Lemma SortedBelow_var nd pat c : SortedBelow nd -> In (pat, c) (n_vars nd) -> SortedBelow c.
Proof. intros S Hin es nd' HR. apply (S (EVar pat :: es)). eapply R_var; eauto. Qed.
Lemma WFn_SortedBelow P k nd : WFn P k nd -> SortedBelow nd.
Proof.
  intros Hw es nd' HR. destruct (Reach_walk P _ _ _ HR k Hw) as (_ & W & _). inversion W; subst. assumption.
Qed.

Definition Cand (verb : str) (nd : node) (toks : list token) (es : list edge) (nd' : node) (caps : list str) (m : minfo) : Prop :=
  Reach nd es nd' /\ MatchEdges es toks caps /\ bound_at verb nd' = Some m.

Lemma cand_short verb nd toks es nd' caps m :
  length toks <= 1 -> Cand verb nd toks es nd' caps m -> es = [] /\ nd' = nd /\ caps = [].
Proof.
  intros Hl (HR & HM & HB). destruct (MatchEdges_prefix _ _ _ (ME_end toks Hl) es caps HM) as [-> <-].
  inversion HR; auto.
Qed.

Lemma cand_long verb nd t0 t1 rest es nd' caps m :
  Cand verb nd (t0 :: t1 :: rest) es nd' caps m ->
  (exists nxt es1, es = ELit (tval t0 ++ tval t1) :: es1 /\ assoc (tval t0 ++ tval t1) (n_segs nd) = Some nxt /\
                   Cand verb nxt rest es1 nd' caps m) \/
  (exists pat cn c z es1 caps1, es = EVar pat :: es1 /\ is TSlash t0 = true /\ In (pat, cn) (n_vars nd) /\
                   t1 :: rest = c ++ z /\ MatchPat pat c z /\ Cand verb cn z es1 nd' caps1 m /\ caps = caps1 ++ [spell c]).
Proof.
  intros (HR & HM & HB).
  remember (t0 :: t1 :: rest) as toks eqn:Et.
  destruct HM as [toks Hl|u0 u1 rest' es0 caps0 HM0|pat u0 c z es0 caps0 Ht Hne HP HM0].
  - subst toks. cbn in Hl. lia.
  - injection Et as -> -> ->. left.
    inversion HR as [|? key cn ? ? Ha HR'|]; subst. exists cn, es0. repeat split; auto.
  - injection Et as -> Ecz. right.
    inversion HR as [| |? ? cn ? ? Hin HR']; subst. exists pat, cn, c, z, es0, caps0. repeat split; auto.
Qed.

Lemma cand_lit verb nd t0 t1 rest nxt es nd' caps m :
  assoc (tval t0 ++ tval t1) (n_segs nd) = Some nxt -> Cand verb nxt rest es nd' caps m ->
  Cand verb nd (t0 :: t1 :: rest) (ELit (tval t0 ++ tval t1) :: es) nd' caps m.
Proof. intros Ha (HR & HM & HB). repeat split; auto. - eapply R_lit; eauto. - now apply ME_lit. Qed.

Lemma cand_var verb nd t0 pat cn c z es nd' caps m :
  In (pat, cn) (n_vars nd) -> is TSlash t0 = true -> MatchPat pat c z -> c ++ z <> [] ->
  Cand verb cn z es nd' caps m ->
  Cand verb nd (t0 :: c ++ z) (EVar pat :: es) nd' (caps ++ [spell c]) m.
Proof. intros Hin Ht HP Hne (HR & HM & HB). repeat split; auto. - eapply R_var; eauto. - now apply ME_var. Qed.

Lemma Reach_functional nd es nd1 : Reach nd es nd1 -> forall nd2, SortedBelow nd -> Reach nd es nd2 -> nd1 = nd2.
Proof.
  induction 1 as [nd|nd k c es nd1 Ha _ IH|nd pat c es nd1 Hin _ IH]; intros nd2 HS R2;
    inversion R2 as [|? ? c' ? ? Ha'|? ? c' ? ? Hin']; subst; auto.
  - apply IH; [eapply SortedBelow_lit; eauto|congruence].
  - apply IH; [eapply SortedBelow_var; eauto|].
    now rewrite (sorted_in_functional _ _ _ _ (HS [] nd (R_here nd)) Hin Hin').
Qed.

(* an edge path determines the node, the captures and the binding *)
Lemma cand_functional verb es nd toks nd1 caps1 m1 nd2 caps2 m2 :
  SortedBelow nd ->
  Cand verb nd toks es nd1 caps1 m1 -> Cand verb nd toks es nd2 caps2 m2 -> nd1 = nd2 /\ caps1 = caps2 /\ m1 = m2.
Proof.
  intros HS (R1 & M1 & B1) (R2 & M2 & B2). rewrite <- (app_nil_r es) in M2.
  destruct (MatchEdges_prefix _ _ _ M1 _ _ M2) as [_ ->]. destruct (Reach_functional _ _ _ R1 _ HS R2).
  repeat split. congruence.
Qed.

Lemma cover_no_prefix es : forall e ext toks caps caps',
  MatchEdges es toks caps -> MatchEdges (es ++ e :: ext) toks caps' -> False.
Proof. intros e ext toks caps caps' M1 M2. now destruct (MatchEdges_prefix _ _ _ M1 _ _ M2). Qed.

Section Least.
Variable okconv : list str -> str -> bool.

(* "the captures convert": every capture that is bound to a field converts to that field's type --
   exactly the pairs path_params builds *)
Definition conv_ok (m : minfo) (caps : list str) : bool :=
  forallb (fun fc => is_nil (fst fc) || okconv (fst fc) (snd fc)) (combine (rev (m_vars m)) caps).

Lemma conv_ok_snoc m ps fds x :
  length ps < length (m_vars m) -> nth_error (m_vars m) (length (m_vars m) - length ps - 1) = Some fds ->
  conv_ok m (ps ++ [x]) = conv_ok m ps && (is_nil fds || okconv fds x).
Proof.
  intros Hl Hn. unfold conv_ok.
  rewrite (combine_snoc (rev (m_vars m)) ps x fds).
  - rewrite forallb_app. cbn. now rewrite andb_true_r.
  - rewrite nth_error_rev by lia. rewrite <- Hn. f_equal. lia.
Qed.
Lemma conv_ok_app_false m ps qs : conv_ok m ps = false -> conv_ok m (ps ++ qs) = false.
Proof.
  intros H. destruct (conv_ok m (ps ++ qs)) eqn:E; auto.
  unfold conv_ok in *. apply forallb_combine_app in E. congruence.
Qed.

(* a candidate one of whose captures does not convert *)
Definition Bad (verb : str) (nd : node) (toks : list token) (es : list edge) : Prop :=
  exists nd' caps m, Cand verb nd toks es nd' caps m /\ conv_ok m caps = false.
Definition ConvAll (verb : str) (nd : node) (toks : list token) : Prop :=
  forall es nd' caps m, Cand verb nd toks es nd' caps m -> conv_ok m caps = true.

Lemma bad_lit verb nd t0 t1 rest nxt es :
  assoc (tval t0 ++ tval t1) (n_segs nd) = Some nxt -> Bad verb nxt rest es ->
  Bad verb nd (t0 :: t1 :: rest) (ELit (tval t0 ++ tval t1) :: es).
Proof. intros Ha (nd' & caps & m & C & F). exists nd', caps, m. split; [eapply cand_lit; eauto|exact F]. Qed.
Lemma bad_var verb nd t0 pat cn c z es :
  In (pat, cn) (n_vars nd) -> is TSlash t0 = true -> MatchPat pat c z -> c ++ z <> [] -> Bad verb cn z es ->
  Bad verb nd (t0 :: c ++ z) (EVar pat :: es).
Proof.
  intros Hin Ht HP Hne (nd' & caps & m & C & F). exists nd', (caps ++ [spell c]), m.
  split; [eapply cand_var; eauto|now apply conv_ok_app_false].
Qed.
Lemma ConvAll_lit verb nd t0 t1 rest nxt :
  assoc (tval t0 ++ tval t1) (n_segs nd) = Some nxt -> ConvAll verb nd (t0 :: t1 :: rest) -> ConvAll verb nxt rest.
Proof. intros Ha H es nd' caps m C. apply (H _ _ _ _ (cand_lit _ _ _ _ _ _ _ _ _ _ Ha C)). Qed.

Lemma refused_conv_ok m caps : Refused okconv m caps -> conv_ok m caps = false.
Proof.
  intros (ps & c & qs & fds & -> & Hl & Hn & Hc). apply conv_ok_app_false.
  rewrite (conv_ok_snoc m ps fds c Hl Hn), Hc. apply andb_false_r.
Qed.

(* path.search only answers with captures the oracle accepted *)
Lemma search_conv_ok fuel verb : forall nd toks m ps,
  search okconv fuel verb nd toks = Ok (m, ps) -> conv_ok m ps = true.
Proof.
  induction fuel as [|f IH]; intros nd toks m ps H; [discriminate|].
  destruct (short_or_long toks) as [Hl|(t0 & t1 & rest & ->)].
  - rewrite (search_short _ _ _ _ _ Hl) in H. apply pick_bound in H. destruct H as [_ ->].
    unfold conv_ok. now rewrite combine_nil.
  - destruct (search_long _ _ _ _ _ _ _ _ H I)
      as [(nxt & res & _ & Hr & E)|[_ [[E _]|(_ & pre & pat & cn & post & c & z & m1 & ps1 & fds & _ & _ & _ & Er & Hl & Hn & E)]]].
    + injection E as <-. eauto.
    + discriminate.
    + symmetry in E. apply capture_ok in E. destruct E as [E Ec]. injection E as -> ->.
      rewrite (conv_ok_snoc m1 ps1 fds _ Hl Hn), (IH _ _ _ _ Er), Ec. reflexivity.
Qed.

(* an Err at a node that has a candidate is caused by a capture that does not convert *)
Theorem search_err_bad fuel verb nd toks e :
  search okconv fuel verb nd toks = Err e ->
  forall es nd' caps m, Cand verb nd toks es nd' caps m -> exists esb, Bad verb nd toks esb.
Proof.
  intros H es nd' caps m (HR & HM & HB).
  destruct (search_err_refused okconv verb es toks caps HM _ _ _ _ _ HR HB H)
    as (mb & capsb & (esb & ndb & HRb & HBb & HMb) & Rf).
  exists esb, ndb, capsb, mb. split; [repeat split; assumption|now apply refused_conv_ok].
Qed.

(* completeness with the property's own premise: if every candidate's captures convert and there is a
   candidate, the request is served *)
Theorem search_complete_conv fuel verb nd k toks es nd' caps m :
  TrieInv nd k -> length toks < fuel -> ConvAll verb nd toks -> Cand verb nd toks es nd' caps m ->
  exists r, search okconv fuel verb nd toks = Ok r.
Proof.
  intros Inv Hf Hconv HC. pose proof (search_total okconv fuel verb nd k toks Inv Hf) as Hb.
  destruct (search okconv fuel verb nd toks) as [r|e| |] eqn:Es; cbn in Hb; try contradiction; [eauto|].
  destruct (search_err_bad fuel verb nd toks e Es _ _ _ _ HC) as (esb & ndb & capsb & mb & HCb & Hbad).
  rewrite (Hconv _ _ _ _ HCb) in Hbad. discriminate.
Qed.

(* es: the answer's path, es': any candidate's. Either the same path, or the answer is below, or the
   candidate is below the answer AND so is a candidate that does not convert (the only way the search
   can have passed over es': a conversion failure somewhere below the answer's path). *)
Definition Rel (verb : str) (nd : node) (toks : list token) (es es' : list edge) : Prop :=
  es = es' \/ path_lt es es' \/ (path_lt es' es /\ exists esb, Bad verb nd toks esb /\ path_lt esb es).

(* prefixing both paths with one edge keeps the relation, if prefixing with that edge keeps Bad *)
Lemma Rel_cons verb nd toks nd1 toks1 e es es' :
  (forall esb, Bad verb nd1 toks1 esb -> Bad verb nd toks (e :: esb)) ->
  Rel verb nd1 toks1 es es' -> Rel verb nd toks (e :: es) (e :: es').
Proof.
  intros Hb [->|[Hlt|(Hlt & esb & HB & Hltb)]].
  - now left.
  - right. left. now apply PL_next.
  - right. right. split; [now apply PL_next|]. exists (e :: esb). split; [auto|now apply PL_next].
Qed.

(* the main theorem, without any premise on conversions *)
Theorem search_least_gen fuel verb : forall nd toks m ps,
  SortedBelow nd -> search okconv fuel verb nd toks = Ok (m, ps) ->
  exists es nd', Cand verb nd toks es nd' ps m /\
    forall es' nd'' caps' m', Cand verb nd toks es' nd'' caps' m' -> Rel verb nd toks es es'.
Proof.
  induction fuel as [|f IH]; intros nd toks m ps HS H; [discriminate|].
  destruct (short_or_long toks) as [Hl|(t0 & t1 & rest & ->)].
  - rewrite (search_short _ _ _ _ _ Hl) in H. apply pick_bound in H. destruct H as [HB ->].
    exists [], nd. split; [repeat split; auto; now constructor|].
    intros es' nd'' caps' m' HC. destruct (cand_short _ _ _ _ _ _ _ Hl HC) as (-> & _). now left.
  - destruct (search_long _ _ _ _ _ _ _ _ H I)
      as [(nxt & res & Ha & Hr & E)|[Hdead [[E _]|(Ht & pre & pat & cn & post & c & z & m1 & ps1 & fds & Evs & Hpre & Ev & Er & _ & _ & E)]]].
    + (* the literal edge answers *)
      injection E as <-.
      destruct (IH _ _ _ _ (SortedBelow_lit _ _ _ HS Ha) Hr) as (es1 & nd' & HC1 & HL).
      exists (ELit (tval t0 ++ tval t1) :: es1), nd'. split; [eapply cand_lit; eauto|].
      intros es' nd'' caps' m' HC'.
      destruct (cand_long _ _ _ _ _ _ _ _ _ HC') as [(nxt' & es2 & -> & Ha' & HC2)|(pat & cn & c & z & es2 & caps2 & -> & _)].
      * rewrite Ha in Ha'. injection Ha' as <-. eapply Rel_cons; eauto using bad_lit.
      * right. left. apply PL_here. constructor.
    + discriminate.
    + (* a variable answers: the literal edge, if there is one, and the variables before it lead
         nowhere, the variables after it spell greater *)
      symmetry in E. apply capture_ok in E. destruct E as [E _]. injection E as -> ->.
      destruct (var_index_sound _ _ _ _ Ev) as [Etl HP].
      assert (Hne : c ++ z <> []) by (rewrite <- Etl; discriminate).
      assert (Hin : In (pat, cn) (n_vars nd)) by (rewrite Evs; apply in_elt).
      pose proof (HS [] nd (R_here nd)) as Hsort. rewrite Evs in Hsort. destruct (sorted_split _ _ _ _ Hsort) as [Hlt Hgt].
      destruct (IH _ _ _ _ (SortedBelow_var _ _ _ HS Hin) Er) as (es1 & nd' & HC1 & HL).
      exists (EVar pat :: es1), nd'. split; [rewrite Etl; eapply cand_var; eauto|].
      intros es' nd'' caps' m' HC'.
      destruct (cand_long _ _ _ _ _ _ _ _ _ HC')
        as [(nxt' & es2 & -> & Ha' & HC2)|(pat' & cn' & c' & z' & es2 & caps2 & -> & _ & Hin' & Ecz & HP' & HC2 & ->)].
      * destruct (Hdead _ Ha') as [e1 Er1]. destruct (search_err_bad _ _ _ _ _ Er1 _ _ _ _ HC2) as [esb HB].
        right. right. split; [apply PL_here; constructor|].
        exists (ELit (tval t0 ++ tval t1) :: esb). split; [eapply bad_lit; eauto|apply PL_here; constructor].
      * pose proof (var_index_complete _ _ _ HP') as Hvi. rewrite <- Ecz in Hvi.
        pose proof Hin' as Hwhere. rewrite Evs in Hwhere. apply in_app_or in Hwhere. destruct Hwhere as [Hb|[E|Ha']].
        -- destruct (proj1 (Forall_forall _ _) Hpre _ Hb _ _ Hvi) as [e1 Er1].
           destruct (search_err_bad _ _ _ _ _ Er1 _ _ _ _ HC2) as [esb HB].
           pose proof (Hlt _ _ Hb) as Hl.
           right. right. split; [apply PL_here; now constructor|].
           exists (EVar pat' :: esb). split; [|apply PL_here; now constructor].
           rewrite Ecz. eapply bad_var; eauto. now rewrite <- Ecz.
        -- injection E as <- <-. rewrite Ev in Hvi. injection Hvi as <- <-. rewrite Etl. eapply Rel_cons; eauto using bad_var.
        -- right. left. apply PL_here. constructor. eauto.
Qed.

(* the least candidate: a candidate that is below every other one *)
Definition Least (verb : str) (nd : node) (toks : list token) (es : list edge) (nd' : node) (caps : list str) (m : minfo) : Prop :=
  Cand verb nd toks es nd' caps m /\
  forall es' nd'' caps' m', Cand verb nd toks es' nd'' caps' m' -> es = es' \/ path_lt es es'.

Lemma Least_unique verb nd toks es1 nd1 caps1 m1 es2 nd2 caps2 m2 :
  SortedBelow nd -> Least verb nd toks es1 nd1 caps1 m1 -> Least verb nd toks es2 nd2 caps2 m2 ->
  es1 = es2 /\ nd1 = nd2 /\ caps1 = caps2 /\ m1 = m2.
Proof.
  intros HS [C1 L1] [C2 L2].
  assert (E : es1 = es2) by (apply path_le_antisym; [eapply L1|eapply L2]; eauto). subst es2.
  split; [reflexivity|]. eapply cand_functional; eauto.
Qed.

(* WITHOUT the premise on conversions: the answer is a candidate all of whose captures convert, and
   any candidate below it is there together with a candidate below the answer that does not convert *)
Theorem least_edge_path_partial fuel verb root toks m ps :
  SortedBelow root ->
  search okconv fuel verb root toks = Ok (m, ps) ->
  exists es nd, Cand verb root toks es nd ps m /\ conv_ok m ps = true /\
    forall es' nd' caps' m', Cand verb root toks es' nd' caps' m' ->
      es = es' \/ path_lt es es' \/
      (path_lt es' es /\ exists esb ndb capsb mb,
          Cand verb root toks esb ndb capsb mb /\ conv_ok mb capsb = false /\ path_lt esb es).
Proof.
  intros HS H. destruct (search_least_gen fuel verb root toks m ps HS H) as (es & nd & HC & HL).
  exists es, nd. split; [exact HC|]. split; [exact (search_conv_ok _ _ _ _ _ _ H)|].
  intros es' nd' caps' m' HC'. destruct (HL _ _ _ _ HC') as [E|[Hlt|(Hlt & esb & (ndb & capsb & mb & HCb & Hb) & Hltb)]]; auto.
  right. right. split; [exact Hlt|]. exists esb, ndb, capsb, mb. auto.
Qed.

(* WITH the premise (every candidate's captures convert): the answer is the least candidate *)
Theorem least_edge_path fuel verb root toks m ps :
  SortedBelow root -> ConvAll verb root toks ->
  search okconv fuel verb root toks = Ok (m, ps) ->
  exists es nd, Least verb root toks es nd ps m.
Proof.
  intros HS Hconv H. destruct (search_least_gen fuel verb root toks m ps HS H) as (es & nd & HC & HL).
  exists es, nd. split; [exact HC|].
  intros es' nd' caps' m' HC'. destruct (HL _ _ _ _ HC') as [E|[Hlt|(Hlt & esb & (ndb & capsb & mb & HCb & Hb) & Hltb)]]; auto.
  rewrite (Hconv _ _ _ _ HCb) in Hb. discriminate.
Qed.

(* the converse: the least candidate is what the search answers *)
Theorem least_is_served fuel verb root k toks es nd caps m :
  TrieInv root k -> SortedBelow root -> length toks < fuel -> ConvAll verb root toks ->
  Least verb root toks es nd caps m ->
  search okconv fuel verb root toks = Ok (m, caps).
Proof.
  intros Inv HS Hf Hconv HL.
  destruct (search_complete_conv fuel verb root k toks es nd caps m Inv Hf Hconv (proj1 HL)) as [[m2 ps2] Hr].
  destruct (least_edge_path fuel verb root toks m2 ps2 HS Hconv Hr) as (es2 & nd2 & HL2).
  destruct (Least_unique _ _ _ _ _ _ _ _ _ _ _ HS HL HL2) as (_ & _ & -> & ->). exact Hr.
Qed.

(* the search is characterised: the least candidate, else an error *)
Theorem search_characterised fuel verb root k toks :
  TrieInv root k -> SortedBelow root -> length toks < fuel -> ConvAll verb root toks ->
  match search okconv fuel verb root toks with
  | Ok (m, ps) => exists es nd, Least verb root toks es nd ps m
  | Err _ => forall es nd caps m, ~ Cand verb root toks es nd caps m
  | _ => False
  end.
Proof.
  intros Inv HS Hf Hconv. pose proof (search_total okconv fuel verb root k toks Inv Hf) as Hb.
  destruct (search okconv fuel verb root toks) as [[m ps]|e| |] eqn:Es; cbn in Hb; try contradiction.
  - eapply least_edge_path; eauto.
  - intros es nd caps m HC.
    destruct (search_complete_conv fuel verb root k toks es nd caps m Inv Hf Hconv HC) as [r Hr]. congruence.
Qed.

(* the class of the error: "method not allowed" on the empty path, "not found" otherwise *)
Definition err_of (toks : list token) : err := if Nat.leb (length toks) 1 then EMethod else ENotFound.

Lemma search_err_class fuel verb nd toks e :
  ConvAll verb nd toks -> search okconv fuel verb nd toks = Err e -> e = err_of toks.
Proof.
  intros Hconv H.
  destruct (search_err_kind _ _ _ _ _ _ H) as [E|(m & caps & (es & nd' & HR & HB & HM) & Rf)]; [exact E|].
  apply refused_conv_ok in Rf. rewrite (Hconv es nd' caps m) in Rf; [discriminate|repeat split; assumption].
Qed.
End Least.

(* every capture converts (e.g. string fields only): the premise holds of every node and request *)
Lemma conv_true_ConvAll okconv verb nd toks : (forall fp t, okconv fp t = true) -> ConvAll okconv verb nd toks.
Proof.
  intros Hc es nd' caps m _. unfold conv_ok. apply forallb_forall. intros [fp t] _. cbn. rewrite Hc. apply orb_true_r.
Qed.

Print Assumptions MatchPat_split_unique.
Print Assumptions cover_no_prefix.
Print Assumptions search_err_bad.
Print Assumptions search_complete_conv.
Print Assumptions least_edge_path_partial.
Print Assumptions least_edge_path.
Print Assumptions least_is_served.
Print Assumptions search_characterised.

(* literal beats variable: if some candidate has a literal edge where another path has a variable edge
   (same edges before), the answer does not go through that variable *)
Theorem literal_beats_variable okconv fuel verb root toks m ps pre key s1 nd1 caps1 m1 :
  SortedBelow root -> ConvAll okconv verb root toks ->
  search okconv fuel verb root toks = Ok (m, ps) ->
  Cand verb root toks (pre ++ ELit key :: s1) nd1 caps1 m1 ->
  exists es nd, Least verb root toks es nd ps m /\ forall p s2, es <> pre ++ EVar p :: s2.
Proof.
  intros HS Hconv H HC1.
  destruct (least_edge_path okconv fuel verb root toks m ps HS Hconv H) as (es & nd & HL).
  exists es, nd. split; [exact HL|]. intros p s2 E. subst es.
  assert (Hlt : path_lt (pre ++ ELit key :: s1) (pre ++ EVar p :: s2)) by (apply path_lt_app, PL_here; constructor).
  destruct (proj2 HL _ _ _ _ HC1) as [E|Hgt].
  - apply app_inv_head in E. discriminate.
  - eapply path_lt_asym; eauto.
Qed.

(* the answer is a function of the set of candidates: two tries (built in whatever order, or from
   different rule sets) that offer the same candidates to a request answer it identically *)
Theorem least_is_order_independent okconv fuel1 fuel2 verb root1 root2 k1 k2 toks :
  TrieInv root1 k1 -> SortedBelow root1 -> length toks < fuel1 -> ConvAll okconv verb root1 toks ->
  TrieInv root2 k2 -> SortedBelow root2 -> length toks < fuel2 -> ConvAll okconv verb root2 toks ->
  (forall es caps m, (exists nd, Cand verb root1 toks es nd caps m) <-> (exists nd, Cand verb root2 toks es nd caps m)) ->
  search okconv fuel1 verb root1 toks = search okconv fuel2 verb root2 toks.
Proof.
  intros I1 S1 F1 C1 I2 S2 F2 C2 Hsame.
  pose proof (search_characterised okconv fuel1 verb root1 k1 toks I1 S1 F1 C1) as H1.
  pose proof (search_characterised okconv fuel2 verb root2 k2 toks I2 S2 F2 C2) as H2.
  destruct (search okconv fuel1 verb root1 toks) as [[m1 ps1]|e1| |] eqn:E1; try contradiction;
  destruct (search okconv fuel2 verb root2 toks) as [[m2 ps2]|e2| |] eqn:E2; try contradiction.
  - destruct H1 as (es1 & nd1 & HC1 & HL1), H2 as (es2 & nd2 & HC2 & HL2).
    destruct (proj1 (Hsame _ _ _) (ex_intro _ nd1 HC1)) as [nd1' HC1'].
    destruct (proj2 (Hsame _ _ _) (ex_intro _ nd2 HC2)) as [nd2' HC2'].
    assert (E : es1 = es2) by (apply path_le_antisym; [eapply HL1|eapply HL2]; eauto). subst es2.
    destruct (cand_functional _ _ _ _ _ _ _ _ _ _ S2 HC1' HC2) as (_ & -> & ->). reflexivity.
  - destruct H1 as (es1 & nd1 & HC1 & HL1). destruct (proj1 (Hsame _ _ _) (ex_intro _ nd1 HC1)) as [nd1' HC1'].
    now apply H2 in HC1'.
  - destruct H2 as (es2 & nd2 & HC2 & HL2). destruct (proj2 (Hsame _ _ _) (ex_intro _ nd2 HC2)) as [nd2' HC2'].
    now apply H1 in HC2'.
  - rewrite (search_err_class okconv _ _ _ _ _ C1 E1), (search_err_class okconv _ _ _ _ _ C2 E2). reflexivity.
Qed.

Print Assumptions literal_beats_variable.
Print Assumptions least_is_order_independent.

(* at the level of route, on every trie registration can build *)
Section RouteLeast.
Variables isLetter isNumber : N -> bool.
Variable resolves : str -> list str -> bool.
Variable okconv : list str -> str -> bool.
Notation Inv := (Inv isLetter isNumber resolves).
Notation route := (route okconv isLetter isNumber).
Notation lex_path := (lex_path isLetter isNumber).

Lemma Inv_hyps L root : Inv L root -> TrieInv root 0 /\ SortedBelow root.
Proof.
  intros HI. split; [exact (Inv_TrieInv _ _ _ _ _ HI)|exact (WFn_SortedBelow _ _ _ (inv_wf _ _ _ _ _ HI))].
Qed.

(* route is characterised: the binding at the least covering edge path with that path's captures,
   else an error. (Sane is not needed: nothing here depends on the classifiers.) *)
Theorem route_is_least L root verb p :
  Inv L root ->
  (forall toks, lex_path (normalise p) = Ok toks -> ConvAll okconv verb root toks) ->
  match route root verb p with
  | Ok (m, ps) => exists toks es nd, lex_path (normalise p) = Ok toks /\ Least verb root toks es nd ps m
  | Err _ => forall toks es nd caps m, lex_path (normalise p) = Ok toks -> ~ Cand verb root toks es nd caps m
  | _ => False
  end.
Proof.
  intros HI Hconv. destruct (Inv_hyps _ _ HI) as [Hinv HS]. unfold Match.route.
  pose proof (lex_path_benign isLetter isNumber (normalise p)) as Hl.
  destruct (lex_path (normalise p)) as [toks|e| |] eqn:El; cbn in Hl; try contradiction.
  - pose proof (search_characterised okconv (S (length toks)) verb root 0 toks Hinv HS (Nat.lt_succ_diag_r _) (Hconv toks eq_refl)) as H.
    destruct (search okconv (S (length toks)) verb root toks) as [[m ps]|e| |]; try contradiction.
    + destruct H as (es & nd & HL). exists toks, es, nd. auto.
    + intros toks' es nd caps m E. injection E as <-. apply H.
  - intros toks es nd caps m E. discriminate.
Qed.

(* ... and conversely the least candidate is what route answers *)
Theorem route_least_served L root verb p toks es nd caps m :
  Inv L root -> lex_path (normalise p) = Ok toks -> ConvAll okconv verb root toks ->
  Least verb root toks es nd caps m -> route root verb p = Ok (m, caps).
Proof.
  intros HI El Hconv HL. destruct (Inv_hyps _ _ HI) as [Hinv HS]. unfold Match.route. rewrite El.
  eapply least_is_served; eauto.
Qed.

(* without the premise on conversions *)
Theorem route_least_partial L root verb p m ps :
  Inv L root -> route root verb p = Ok (m, ps) ->
  exists toks es nd, lex_path (normalise p) = Ok toks /\
    Cand verb root toks es nd ps m /\ conv_ok okconv m ps = true /\
    forall es' nd' caps' m', Cand verb root toks es' nd' caps' m' ->
      es = es' \/ path_lt es es' \/
      (path_lt es' es /\ exists esb ndb capsb mb,
          Cand verb root toks esb ndb capsb mb /\ conv_ok okconv mb capsb = false /\ path_lt esb es).
Proof.
  intros HI H. destruct (Inv_hyps _ _ HI) as [Hinv HS]. unfold Match.route in H.
  destruct (lex_path (normalise p)) as [toks|e| |] eqn:El; try discriminate.
  destruct (least_edge_path_partial okconv _ _ _ _ _ _ HS H) as (es & nd & R).
  exists toks, es, nd. auto.
Qed.
End RouteLeast.

Print Assumptions route_is_least.
Print Assumptions route_least_served.
Print Assumptions route_least_partial.

(* the same with the premise of C02_complete: okconv constantly true *)
Corollary route_is_least_conv_true isLetter isNumber resolves okconv L root verb p :
  Inv isLetter isNumber resolves L root -> (forall fp t, okconv fp t = true) ->
  match route okconv isLetter isNumber root verb p with
  | Ok (m, ps) => exists toks es nd, lex_path isLetter isNumber (normalise p) = Ok toks /\ Least verb root toks es nd ps m
  | Err _ => forall toks es nd caps m, lex_path isLetter isNumber (normalise p) = Ok toks -> ~ Cand verb root toks es nd caps m
  | _ => False
  end.
Proof. intros HI Hc. eapply route_is_least; eauto. intros toks _. now apply conv_true_ConvAll. Qed.
Print Assumptions route_is_least_conv_true.

(* all the candidates of a request, computed (in increasing order when variables are sorted) *)
Fixpoint cands (fuel : nat) (verb : str) (nd : node) (toks : list token) : list (list edge * list str * minfo) :=
  match fuel with
  | O => []
  | S f =>
    match toks with
    | [] | [_] => match bound_at verb nd with Some m => [([], [], m)] | None => [] end
    | t0 :: t1 :: rest =>
      (match assoc (tval t0 ++ tval t1) (n_segs nd) with
       | Some nxt => map (fun x => (ELit (tval t0 ++ tval t1) :: fst (fst x), snd (fst x), snd x)) (cands f verb nxt rest)
       | None => []
       end) ++
      (if is TSlash t0 then
         flat_map (fun pc => match var_index (fst pc) (t1 :: rest) with
                             | Ok (Some (c, z)) =>
                               map (fun x => (EVar (fst pc) :: fst (fst x), snd (fst x) ++ [spell c], snd x)) (cands f verb (snd pc) z)
                             | _ => []
                             end) (n_vars nd)
       else [])
    end
  end.

Lemma cands_short f verb nd toks : length toks <= 1 ->
  cands (S f) verb nd toks = match bound_at verb nd with Some m => [([], [], m)] | None => [] end.
Proof. destruct toks as [|t0 [|t1 rest]]; cbn [length]; [reflexivity|reflexivity|lia]. Qed.

Lemma cands_sound fuel verb : forall nd toks es caps m,
  In (es, caps, m) (cands fuel verb nd toks) -> exists nd', Cand verb nd toks es nd' caps m.
Proof.
  induction fuel as [|f IH]; intros nd toks es caps m H; [contradiction|].
  destruct (short_or_long toks) as [Hl|(t0 & t1 & rest & ->)].
  - rewrite (cands_short _ _ _ _ Hl) in H. destruct (bound_at verb nd) as [m0|] eqn:Eb; [|contradiction].
    destruct H as [E|[]]. injection E as <- <- <-. exists nd. repeat split; auto; now constructor.
  - cbn [cands] in H. apply in_app_or in H. destruct H as [H|H].
    + destruct (assoc (tval t0 ++ tval t1) (n_segs nd)) as [nxt|] eqn:Ea; [|contradiction].
      apply in_map_iff in H. destruct H as ([[es1 caps1] m1] & E & Hin). cbn [fst snd] in E. injection E as <- <- <-.
      destruct (IH _ _ _ _ _ Hin) as [nd' HC]. exists nd'. eapply cand_lit; eauto.
    + destruct (is TSlash t0) eqn:Ht; [|contradiction].
      apply in_flat_map in H. destruct H as ([pat cn] & Hin & H). cbn [fst snd] in H.
      destruct (var_index pat (t1 :: rest)) as [[[c z]|]| | |] eqn:Ev; try contradiction.
      apply in_map_iff in H. destruct H as ([[es1 caps1] m1] & E & Hin1). cbn [fst snd] in E. injection E as <- <- <-.
      destruct (IH _ _ _ _ _ Hin1) as [nd' HC]. exists nd'.
      destruct (var_index_sound _ _ _ _ Ev) as [E1 HP]. rewrite E1. eapply cand_var; eauto. rewrite <- E1. discriminate.
Qed.

Lemma cands_complete fuel verb : forall nd toks es nd' caps m,
  length toks < fuel -> Cand verb nd toks es nd' caps m -> In (es, caps, m) (cands fuel verb nd toks).
Proof.
  induction fuel as [|f IH]; intros nd toks es nd' caps m Hf HC; [lia|].
  destruct (short_or_long toks) as [Hl|(t0 & t1 & rest & ->)].
  - rewrite (cands_short _ _ _ _ Hl). destruct (cand_short _ _ _ _ _ _ _ Hl HC) as (-> & -> & ->).
    destruct HC as (_ & _ & ->). now left.
  - cbn [cands length] in *. apply in_or_app.
    destruct (cand_long _ _ _ _ _ _ _ _ _ HC) as [(nxt & es1 & -> & Ha & HC1)|(pat & cn & c & z & es1 & caps1 & -> & Ht & Hin & Ecz & HP & HC1 & ->)].
    + left. rewrite Ha. apply in_map_iff. exists (es1, caps, m). split; [reflexivity|]. eapply IH; eauto. lia.
    + right. rewrite Ht. apply in_flat_map. exists (pat, cn). split; [exact Hin|]. cbn [fst snd].
      rewrite Ecz, (var_index_complete _ _ _ HP). apply in_map_iff. exists (es1, caps1, m). split; [reflexivity|].
      eapply IH; eauto. assert (length z <= length (t1 :: rest)) by (rewrite Ecz, app_length; lia). cbn [length] in *. lia.
Qed.

Module Instances.
Local Open Scope N_scope.
Definition asciiL (r : N) : bool := ((65 <=? r) && (r <=? 90)) || ((97 <=? r) && (r <=? 122)).
Definition asciiN (r : N) : bool := (48 <=? r) && (r <=? 57).
Definition all_ok (_ : str) (_ : list str) := true.
Definition conv_true (_ : list str) (_ : str) := true.
Definition GET : str := [71;69;84].
Definition mk verb tmpl := {| h_main := {| b_verb := verb; b_tmpl := tmpl; b_body := BNone; b_resp := []; b_nested := false |}; h_adds := [] |}.
Definition decl (mid tmpl : str) := {| d_id := mid; d_config := []; d_annot := Some (mk GET tmpl) |}.
Definition build ds := run_services asciiL asciiN all_ok all_ok all_ok empty_node [ds].
Definition tSl := Tok TSlash [47].
Definition pStar := [Tok TStar [42]].
Definition pStarStar := [Tok TStarStar [42;42]].

Lemma build_Inv ds : exists L, Inv asciiL asciiN all_ok L (build ds).
Proof.
  destruct (published_Inv asciiL asciiN all_ok all_ok all_ok [ds] [] empty_node (Inv_empty _ _ _)) as (L & HI & _).
  exists (L ++ []). exact HI.
Qed.

(* three overlapping templates, every capture converts: the hypotheses are satisfiable and the answer
   is the least of the three candidates, in whatever order they were registered *)
Definition mL : str := [47;83;118;47;77;108].   (* "/Sv/Ml": GET /aa/bb/v1 *)
Definition mV : str := [47;83;118;47;77;118].   (* "/Sv/Mv": GET /aa/{s1}/v1 *)
Definition mA : str := [47;83;118;47;77;97].    (* "/Sv/Ma": GET /aa/{s2=**} *)
Definition dL := decl mL [47;97;97;47;98;98;47;118;49].
Definition dV := decl mV [47;97;97;47;123;115;49;125;47;118;49].
Definition dA := decl mA [47;97;97;47;123;115;50;61;42;42;125].
Definition req3 : str := [47;97;97;47;98;98;47;118;49].       (* /aa/bb/v1 *)
Definition toks3 := [tSl; Tok TPath [97;97]; tSl; Tok TPath [98;98]; tSl; Tok TPath [118;49]; Tok TEOF []].
Definition esL := [ELit [47;97;97]; ELit [47;98;98]; ELit [47;118;49]].
Definition esV := [ELit [47;97;97]; EVar pStar; ELit [47;118;49]].
Definition esA := [ELit [47;97;97]; EVar pStarStar].
Definition infoL := {| m_id := mL; m_vars := []; m_body := BNone; m_resp := [] |}.

Example three_overlapping_templates : forall ds, In ds [[dL; dV; dA]; [dA; dV; dL]; [dV; dA; dL]] ->
  let root := build ds in
  (exists L, Inv asciiL asciiN all_ok L root) /\
  (forall verb toks, ConvAll conv_true verb root toks) /\
  lex_path asciiL asciiN (normalise req3) = Ok toks3 /\
  map (fun x => (fst (fst x), snd (fst x), m_id (snd x))) (cands 8 GET root toks3)
    = [(esL, [], mL); (esV, [[98;98]], mV); (esA, [[98;98;47;118;49]], mA)] /\
  path_lt esL esV /\ path_lt esV esA /\
  route conv_true asciiL asciiN root GET req3 = Ok (infoL, []) /\
  exists nd, Least GET root toks3 esL nd [] infoL.
Proof.
  intros ds Hds root.
  assert (Hconv : forall verb toks, ConvAll conv_true verb root toks) by (intros; now apply conv_true_ConvAll).
  assert (Hlex : lex_path asciiL asciiN (normalise req3) = Ok toks3) by (vm_compute; reflexivity).
  assert (Hroute : route conv_true asciiL asciiN root GET req3 = Ok (infoL, [])).
  { subst root. cbn in Hds. repeat (destruct Hds as [ <- | Hds ]; [vm_compute; reflexivity|]). contradiction. }
  assert (Hcands : map (fun x => (fst (fst x), snd (fst x), m_id (snd x))) (cands 8 GET root toks3)
                   = [(esL, [], mL); (esV, [[98;98]], mV); (esA, [[98;98;47;118;49]], mA)]).
  { subst root. cbn in Hds. repeat (destruct Hds as [ <- | Hds ]; [vm_compute; reflexivity|]). contradiction. }
  destruct (build_Inv ds) as [L HI]. fold root in HI.
  split; [eauto|]. split; [exact Hconv|]. split; [exact Hlex|]. split; [exact Hcands|].
  split; [apply PL_next, PL_here; constructor|]. split; [apply PL_next, PL_here; constructor; vm_compute; reflexivity|].
  split; [exact Hroute|].
  pose proof (route_is_least asciiL asciiN all_ok conv_true L root GET req3 HI (fun toks _ => Hconv GET toks)) as H.
  rewrite Hroute in H. destruct H as (toks & es & nd & El & HL). rewrite Hlex in El. injection El as <-.
  exists nd. replace esL with es; [exact HL|].
  pose proof (cands_complete 8 GET root toks3 es nd [] infoL ltac:(cbn; lia) (proj1 HL)) as Hin.
  apply (in_map (fun x => (fst (fst x), snd (fst x), m_id (snd x)))) in Hin. rewrite Hcands in Hin. cbn in Hin.
  destruct Hin as [E|[E|[E|[]]]]; try discriminate E. now injection E.
Qed.

(* the premise on conversions is needed: the field x converts from digits only (an integer field,
   say), every other field from any text *)
Definition okx (fp : list str) (t : str) : bool := negb (list_eqb str_eqb fp [[120]]) || forallb asciiN t.
Definition nA : str := [47;83;118;47;77;97].    (* "/Sv/Ma": GET /aa/{x}/cc *)
Definition nB : str := [47;83;118;47;77;98].    (* "/Sv/Mb": GET /aa/{y=**} *)
Definition nC : str := [47;83;118;47;77;99].    (* "/Sv/Mc": GET /{w}/{v}/cc *)
Definition eA := decl nA [47;97;97;47;123;120;125;47;99;99].
Definition eB := decl nB [47;97;97;47;123;121;61;42;42;125].
Definition eC := decl nC [47;123;119;125;47;123;118;125;47;99;99].
Definition reqx : str := [47;97;97;47;122;122;47;99;99].       (* /aa/zz/cc *)
Definition toksx := [tSl; Tok TPath [97;97]; tSl; Tok TPath [122;122]; tSl; Tok TPath [99;99]; Tok TEOF []].
Definition pathA := [ELit [47;97;97]; EVar pStar; ELit [47;99;99]].
Definition pathB := [ELit [47;97;97]; EVar pStarStar].
Definition pathC := [EVar pStar; EVar pStar; ELit [47;99;99]].
Definition infoB := {| m_id := nB; m_vars := [[[121]]]; m_body := BNone; m_resp := [] |}.
Definition infoC := {| m_id := nC; m_vars := [[[119]]; [[118]]]; m_body := BNone; m_resp := [] |}.
Definition rootAB := build [eA; eB].
Definition rootABC := build [eA; eB; eC].

(* completeness without the premise is false: /aa/{x}/cc captures "zz", which does not convert; the
   loop over the variables returns that error instead of going on to /aa/{y=**}, whose capture would
   convert -- and the literal level above turns the error into "not found" *)
Example served_refuted :
  (exists L, Inv asciiL asciiN all_ok L rootAB) /\
  lex_path asciiL asciiN (normalise reqx) = Ok toksx /\
  (exists nd, Cand GET rootAB toksx pathB nd [[122;122;47;99;99]] infoB) /\
  conv_ok okx infoB [[122;122;47;99;99]] = true /\
  route okx asciiL asciiN rootAB GET reqx = Err ENotFound.
Proof.
  split; [apply build_Inv|]. split; [vm_compute; reflexivity|]. split; [|split; vm_compute; reflexivity].
  apply (cands_sound 8). vm_compute. right. left. reflexivity.
Qed.

(* the answer is not the least candidate, not even the least candidate whose captures convert: with
   /{w}/{v}/cc also registered the request is answered by it (path: variable, variable, literal),
   although /aa/{y=**} (path: literal, variable) covers it, converts, and is below *)
Example least_edge_path_refuted :
  (exists L, Inv asciiL asciiN all_ok L rootABC) /\
  lex_path asciiL asciiN (normalise reqx) = Ok toksx /\
  route okx asciiL asciiN rootABC GET reqx = Ok (infoC, [[122;122]; [97;97]]) /\
  (exists nd, Cand GET rootABC toksx pathC nd [[122;122]; [97;97]] infoC) /\
  (exists nd, Cand GET rootABC toksx pathB nd [[122;122;47;99;99]] infoB) /\
  conv_ok okx infoB [[122;122;47;99;99]] = true /\
  path_lt pathB pathC /\
  ~ (exists es nd, Least GET rootABC toksx es nd [[122;122]; [97;97]] infoC).
Proof.
  assert (HB : exists nd, Cand GET rootABC toksx pathB nd [[122;122;47;99;99]] infoB).
  { apply (cands_sound 8). vm_compute. right. left. reflexivity. }
  split; [apply build_Inv|]. split; [vm_compute; reflexivity|]. split; [vm_compute; reflexivity|].
  split; [apply (cands_sound 8); vm_compute; right; right; left; reflexivity|].
  split; [exact HB|]. split; [vm_compute; reflexivity|]. split; [apply PL_here; constructor|].
  intros (es & nd & HC & HL). destruct HB as [ndB HB].
  pose proof (cands_complete 8 GET rootABC toksx es nd _ _ ltac:(cbn; lia) HC) as Hin.
  vm_compute in Hin. destruct Hin as [E|[E|[E|[]]]]; try discriminate E.
  injection E as <-. destruct (HL _ _ _ _ HB) as [E|Hlt]; [discriminate E|].
  inversion Hlt as [e e' es0 es1 He|e es0 es1 Hp]; subst. inversion He.
Qed.
End Instances.
Print Assumptions cands_sound.
Print Assumptions cands_complete.
Print Assumptions Instances.three_overlapping_templates.
Print Assumptions Instances.served_refuted.
Print Assumptions Instances.least_edge_path_refuted.
