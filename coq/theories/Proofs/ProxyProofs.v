(* Proofs about Model/Proxy.v: the proxied system (client, backend, handler main loop, pump) is
   a refinement of the direct system (client, backend) under every schedule; the direct system is
   confluent; hence every resting state of the proxied system has the transcript of every resting
   state of the direct system. *)
From Larking Require Import Base.GoSem Model.Proxy.
Local Open Scope list_scope.

(* generic: deterministic processes whose steps commute (on invariant states) reach at most one
   resting state *)
Section Confluence.
  Variables (St Pid : Type) (step : Pid -> St -> option St) (Inv : St -> Prop).
  Hypothesis pid_dec : forall p q : Pid, {p = q} + {p <> q}.
  Hypothesis inv_step : forall s p s', Inv s -> step p s = Some s' -> Inv s'.
  Hypothesis diamond : forall s p q s1 s2, Inv s -> p <> q -> step p s = Some s1 -> step q s = Some s2 ->
      exists s', step q s1 = Some s' /\ step p s2 = Some s'.

  Inductive steps : nat -> St -> St -> Prop :=
  | steps_O : forall s, steps 0 s s
  | steps_S : forall n p s s1 t, step p s = Some s1 -> steps n s1 t -> steps (S n) s t.

  Definition resting (s : St) : Prop := forall p, step p s = None.

  Lemma steps_inv : forall n s t, steps n s t -> Inv s -> Inv t.
  Proof. induction 1 as [|n p s s1 t Hs _ IH]; intros Hi; eauto. Qed.

  Lemma steps_push : forall n s t, steps n s t -> Inv s -> resting t ->
    forall p s1, step p s = Some s1 -> exists m, n = S m /\ steps m s1 t.
  Proof.
    induction 1 as [s|n q s s2 t Hq Hrest IH]; intros Hi Hstuck p s1 Hp.
    - rewrite (Hstuck p) in Hp. discriminate.
    - destruct (pid_dec p q) as [->|Hne].
      + rewrite Hq in Hp. injection Hp as <-. eauto.
      + destruct (diamond s p q s1 s2 Hi Hne Hp Hq) as (s' & Hq' & Hp').
        destruct (IH (inv_step _ _ _ Hi Hq) Hstuck p s' Hp') as (m & -> & Hm).
        exists (S m). split; [reflexivity|]. econstructor; eauto.
  Qed.

  Lemma resting_unique : forall n s t, steps n s t -> Inv s -> resting t ->
    forall m t', steps m s t' -> resting t' -> t = t'.
  Proof.
    induction 1 as [s|n p s s1 t Hp Hrest IH]; intros Hi Hstuck m t' Hm Hstuck'.
    - inversion Hm as [|? q ? s2 ? Hq]; subst; [reflexivity|]. rewrite (Hstuck q) in Hq. discriminate.
    - destruct (steps_push _ _ _ Hm Hi Hstuck' p s1 Hp) as (k & -> & Hk).
      eapply IH; eauto.
  Qed.
End Confluence.
Arguments steps {St Pid} step n s t.
Arguments resting {St Pid} step s.

Lemma dpid_dec : forall p q : dpid, {p = q} + {p <> q}.
Proof. decide equality. Qed.

Definition dinv (d : dstate) : Prop := bdone (dbk d) = false -> cfinal (dcall d) = None.

(* [inv_some] reads every hypothesis [Some _ = Some _] or [MSend _ _ = MSend _ _] as equations between
   the arguments and closes the goal on [None = Some _];
   [break_in H] destructs an innermost scrutinee of a match in H and drops the branches in which H is absurd;
   [cases Hs] splits [Hs : step .. = r] along the matches of the step function. *)
Ltac inv_some :=
  repeat match goal with
  | H : Some _ = Some _ |- _ => injection H as H; try subst
  | H : MSend _ _ = MSend _ _ |- _ => injection H; clear H; intros; try subst
  | H : None = Some _ |- _ => discriminate H
  | H : Some _ = None |- _ => discriminate H
  end.
Ltac break_in H :=
  match type of H with
  | context [match ?x with _ => _ end] =>
      lazymatch x with context [match _ with _ => _ end] => fail | _ => idtac end;
      destruct x eqn:?; cbn in H; try discriminate H
  end.
Ltac cases Hs :=
  cbn in Hs; unfold client_step, client_recv, backend_step, main_step, pump_step in Hs; cbn in Hs;
  repeat break_in Hs; inv_some;
  repeat match goal with
  | H : _ && _ = true |- _ => apply andb_prop in H; destruct H
  | H : negb _ = true |- _ => apply negb_true_iff in H
  end.

Lemma dinv_init : forall sc, dinv (init_d sc).
Proof. intros sc _. unfold init_d, init_call. destruct (client_streams (s_shape sc)); reflexivity. Qed.

Lemma dinv_step : forall sc d p d', dinv d -> step_d sc p d = Some d' -> dinv d'.
Proof.
  intros sc [[u c dn fn] [cp cr cf] [bp br be bd]] p d' Hi Hs. unfold dinv in *. cbn in Hi.
  destruct p; cases Hs; cbn; intros; try discriminate; try congruence; auto.
Qed.

Lemma direct_diamond : forall sc d p q d1 d2, dinv d -> p <> q ->
  step_d sc p d = Some d1 -> step_d sc q d = Some d2 ->
  exists d', step_d sc q d1 = Some d' /\ step_d sc p d2 = Some d'.
Proof.
  intros sc [[u c dn fn] [cp cr cf] [bp br be bd]] p q d1 d2 Hi Hne H1 H2.
  unfold dinv in Hi. cbn in Hi.
  destruct p, q; try congruence; clear Hne.
  all: destruct bd; [discriminate|]; specialize (Hi eq_refl); subst fn.
  all: cases H1; cases H2; try discriminate.
  all: cbn; unfold client_step, client_recv, backend_step; cbn; rewrite ?andb_false_r;
       repeat match goal with H : _ = _ |- _ => rewrite H end; cbn;
       try rewrite <- app_assoc; cbn; eauto.
Qed.

Lemma run_d_steps : forall sc sched d, exists n, steps (step_d sc) n d (run_d sc sched d).
Proof.
  intros sc sched. induction sched as [|p r IH]; intros d; cbn.
  - exists 0. constructor.
  - destruct (step_d sc p d) as [d'|] eqn:E.
    + destruct (IH d') as (n & Hn). exists (S n). econstructor; eauto.
    + apply IH.
Qed.

Lemma steps_d_unique : forall sc n m d t t', dinv d ->
  steps (step_d sc) n d t -> resting (step_d sc) t ->
  steps (step_d sc) m d t' -> resting (step_d sc) t' -> t = t'.
Proof.
  intros sc n m d t t' Hi H1 R1 H2 R2.
  eapply (resting_unique dstate dpid (step_d sc) dinv dpid_dec); eauto.
  - intros; eapply dinv_step; eauto.
  - intros; eapply direct_diamond; eauto.
Qed.

(* abstraction of the proxied system to the direct one: the two calls joined end to end, with the
   messages the handler's two goroutines hold in their hands in between *)
Definition hand_up (s : pstate) : list (list N) :=
  (match pp s with PSend m => [m] | _ => [] end) ++ (match pm s with MFirstSend m => [m] | _ => [] end).
Definition hand_down (s : pstate) : list (list N) :=
  match pm s with MSend h _ => h | _ => [] end.

Definition abs (s : pstate) : dstate :=
  DState (Call (up (back s) ++ hand_up s ++ up (front s)) (closed (front s))
               (down (front s) ++ hand_down s ++ down (back s)) (cfinal (back s)))
         (pcl s) (pbk s).

(* What makes the abstraction commute with the steps, clause by clause:
   1  a final status at the client is the backend's, the main loop is done, and nothing the client
      should still get lies behind it;
   2  the backend call has no final status before the backend handler returns;
   3  once the backend call is half-closed nothing is on its way up and the front call is half-closed;
   4  without client streaming there is no pump and the front call is half-closed from the start; the
      one request lies in front.up until the main loop takes it, then in its hand, and sending it
      half-closes the backend call;
   5, 6  the backend call is opened with the request metadata, at the latest by the first RecvMsg;
   7  the main loop holds the backend's status only when it is final and nothing lies behind it;
   8  main loop done: the client has its status;   9  pump done: backend call half-closed;
   10 with client streaming the pump runs from the opening step on (and MFirst* do not occur). *)
Definition pinv (sc : script) (s : pstate) : Prop :=
  let cs := client_streams (s_shape sc) in
  let ss := server_streams (s_shape sc) in
  (forall f, cfinal (front s) = Some f ->
     cfinal (back s) = Some f /\ pm s = MDone /\ (ss || ok f = true -> down (back s) = [])) /\
  (bdone (pbk s) = false -> cfinal (back s) = None) /\
  (closed (back s) = true -> hand_up s = [] /\ up (front s) = [] /\ closed (front s) = true) /\
  (cs = false -> closed (front s) = true /\ pp s = POff /\
     match pm s with
     | MOpen | MFirstRecv => up (front s) = [s_req sc] /\ closed (back s) = false
     | MFirstSend _ => up (front s) = [] /\ closed (back s) = false
     | _ => up (front s) = [] /\ closed (back s) = true
     end) /\
  (opened s = true -> bmd s = s_reqmd sc) /\
  (match pm s with MRecv | MSend _ _ | MDone => opened s = true | _ => True end) /\
  (forall h f, pm s = MSend h (Some f) ->
     cfinal (back s) = Some f /\ (ss || ok f = true -> down (back s) = [])) /\
  (pm s = MDone -> cfinal (front s) <> None) /\
  (pp s = PDone -> closed (back s) = true) /\
  (cs = true -> match pm s with
                | MOpen => pp s = POff /\ closed (back s) = false
                | MFirstRecv | MFirstSend _ => False
                | _ => pp s <> POff
                end).

Lemma pinv_init : forall sc, pinv sc (init_p sc).
Proof.
  intros sc. unfold pinv, init_p, init_call.
  destruct (s_shape sc); cbn; repeat split; intros; try discriminate; try congruence; auto.
Qed.

Lemma abs_init : forall sc, abs (init_p sc) = init_d sc.
Proof.
  intros sc. unfold abs, init_p, init_d, init_call, hand_up, hand_down.
  destruct (s_shape sc); cbn; reflexivity.
Qed.

(* The step lemmas below are case analyses over the step functions: [open s Hi] names the fields
   of the state and the clauses of the invariant (I1 .. I10: the conjuncts of [pinv], in order).
   In each case most clauses of [pinv] are untouched by the step and the others follow from the
   old clauses by congruence: that is [clause].  Its parts:
   [fwd] brings the hypotheses forward: [inv_some], conjunctions split, implications applied whose
     premise is at hand (an assumption, [a = a], [true || _ = true], [Some x = Some f] for a quantified f);
   [conj_split] splits a goal that is a conjunction into its conjuncts;
   [prune] is [fwd] after [cbn in *], then closes what is absurd or holds by congruence;
   [new_pinv] unfolds [pinv] of the new state and runs [clause] on each conjunct;
   [abs_eq] computes both sides of an equation between abstractions, rewriting with the equations
     of the context and reassociating the queues. *)
Ltac open s Hi :=
  destruct s as [[fu fc fd ff] [bu bc bd bf] [cp cr cf] [kp kr ke kd] m p op bm];
  unfold pinv in Hi; cbn in Hi; destruct Hi as (I1 & I2 & I3 & I4 & I5 & I6 & I7 & I8 & I9 & I10).
Ltac fwd :=
  inv_some; repeat (match goal with
  | H : _ /\ _ |- _ => destruct H
  | H : ?a = ?a -> _ |- _ => specialize (H eq_refl)
  | H : true || _ = true -> _ |- _ => specialize (H eq_refl)
  | H : ?A -> _, H' : ?A |- _ => match type of A with Prop => specialize (H H') end
  | H : forall f, Some ?x = Some f -> @?P f |- _ => specialize (H _ eq_refl)
  | H : forall h f, MSend ?h0 (Some ?x) = MSend h (Some f) -> @?P h f |- _ => specialize (H _ _ eq_refl)
  end; inv_some).
Ltac conj_split := repeat match goal with |- _ /\ _ => split end.
Ltac prune := cbn in *; fwd; try discriminate; try contradiction; try congruence.
Ltac clause :=
  try assumption; intros; try discriminate; subst;
  repeat match goal with H : ?x = _ |- context [?x] => rewrite H end;
  prune; subst; conj_split; try discriminate; try congruence; auto.
Ltac new_pinv := unfold pinv; cbn; conj_split; clause.
Ltac abs_eq :=
  unfold abs, hand_up, hand_down; cbn; unfold client_step, client_recv, backend_step; cbn;
  repeat match goal with H : ?x = _ |- context[?x] => rewrite H end; cbn;
  repeat rewrite <- app_assoc; cbn; rewrite ?app_nil_r; try reflexivity.

(* Client and backend see one end of a call each.  What the client does on its call it does on any
   call with more in flight towards the backend ([u]) and from it ([d]), as long as a final status
   it can see is the real one and then nothing it should still receive is in flight; likewise the
   backend, as long as a half-close it can see means nothing more is coming. *)
Lemma client_step_joined cs ss u1 u2 d fo c k c' k' :
  client_step cs ss c k = Some (c', k') ->
  (forall f, cfinal c = Some f -> fo = Some f /\ (ss || ok f = true -> d = [])) ->
  client_step cs ss (Call (u1 ++ u2 ++ up c) (closed c) (down c ++ d) fo) k =
  Some (Call (u1 ++ u2 ++ up c') (closed c') (down c' ++ d) fo, k').
Proof.
  destruct c as [cu cc cd cf], k as [kp kr kf]. intros Hs Hf. cbn in Hf.
  cases Hs; fwd; subst; unfold client_step, client_recv; cbn;
  repeat match goal with H : ?x = _ |- context [?x] => rewrite H end; cbn;
  rewrite ?app_assoc, ?app_nil_r; reflexivity.
Qed.

Lemma backend_step_joined fin u d1 d2 cl c b c' b' :
  backend_step fin c b = Some (c', b') ->
  (closed c = true -> u = [] /\ cl = true) ->
  backend_step fin (Call (up c ++ u) cl (d1 ++ d2 ++ down c) (cfinal c)) b =
  Some (Call (up c' ++ u) cl (d1 ++ d2 ++ down c') (cfinal c'), b').
Proof.
  destruct c as [cu cc cd cf], b as [bp br be bd]. intros Hs Hc. cbn in Hc.
  cases Hs; fwd; subst; unfold backend_step; cbn;
  repeat match goal with H : ?x = _ |- context [?x] => rewrite H end; cbn;
  rewrite ?app_assoc, ?app_nil_r; reflexivity.
Qed.

Lemma sim_client : forall sc s s', pinv sc s -> step_p sc PClient s = Some s' ->
  pinv sc s' /\ step_d sc DClient (abs s) = Some (abs s').
Proof.
  intros sc s s' Hi Hs. split.
  - open s Hi. cases Hs; new_pinv.
  - cbn in Hs. destruct (client_step _ _ (front s) (pcl s)) as [[c k]|] eqn:E; inv_some.
    unfold abs. cbn.
    erewrite client_step_joined; [reflexivity|exact E|].
    intros f Hf. destruct Hi as (I1 & _). destruct (I1 f Hf) as (-> & Hm & Hd).
    unfold hand_down. rewrite Hm. auto.
Qed.

Lemma sim_backend : forall sc s s', pinv sc s -> step_p sc PBackend s = Some s' ->
  pinv sc s' /\ step_d sc DBackend (abs s) = Some (abs s').
Proof.
  intros sc s s' Hi Hs. split.
  - open s Hi. cases Hs; new_pinv.
  - cbn in Hs. destruct (opened s); [|discriminate].
    destruct (backend_step _ (back s) (pbk s)) as [[c b]|] eqn:E; inv_some.
    unfold abs. cbn.
    erewrite backend_step_joined; [reflexivity|exact E|].
    intros Hc. destruct Hi as (_ & _ & I3 & _). destruct (I3 Hc) as (-> & -> & ->). auto.
Qed.

(* The handler's own steps move one message one place along the joined call (front.up, the pump's
   hand, back.up; back.down, the main loop's hand, front.down), open the backend call, or pass the
   status on: the abstraction does not change.  Which of clauses 4 and 10 speaks depends on whether
   the client streams. *)
Ltac by_cs sc := destruct (client_streams (s_shape sc)); clause.

Lemma sim_pump : forall sc s s', pinv sc s -> step_p sc PPump s = Some s' ->
  pinv sc s' /\ abs s' = abs s.
Proof.
  intros sc s s' Hi Hs. open s Hi. cases Hs; destruct m; (split; [new_pinv | abs_eq]); by_cs sc.
Qed.

Lemma sim_main : forall sc s s', pinv sc s -> step_p sc PMain s = Some s' ->
  pinv sc s' /\ abs s' = abs s.
Proof.
  intros sc s s' Hi Hs. open s Hi. cases Hs; (split; [new_pinv | abs_eq]); by_cs sc.
Qed.

(* A client or backend that waits keeps waiting on the joined call when nothing is in flight for it. *)
Lemma client_stuck_joined cs ss u1 u2 d fo c k :
  client_step cs ss c k = None ->
  (cfin k = None -> fo = None /\ (ss = true -> d = [])) ->
  client_step cs ss (Call (u1 ++ u2 ++ up c) (closed c) (down c ++ d) fo) k = None.
Proof.
  destruct c as [cu cc cd cf], k as [kp kr kf]. intros Hs Hf. cbn in Hf.
  cases Hs; auto; destruct (Hf eq_refl) as (-> & Hd); unfold client_step, client_recv; cbn;
  repeat match goal with H : ?x = _ |- context [?x] => rewrite H end; rewrite ?Hd; auto.
Qed.

Lemma client_stuck_final cs ss c k : client_step cs ss c k = None -> cfin k = None -> cfinal c = None.
Proof. destruct c, k. intros Hs Hk. cbn in Hk. subst. cases Hs; auto. Qed.

Lemma backend_stuck_joined fin u d1 d2 cl c b :
  backend_step fin c b = None ->
  (bdone b = false -> closed c = false -> u = [] /\ cl = false) ->
  backend_step fin (Call (up c ++ u) cl (d1 ++ d2 ++ down c) (cfinal c)) b = None.
Proof.
  destruct c as [cu cc cd cf], b as [bp br be bd]. intros Hs Hc. cbn in Hc.
  cases Hs; auto; destruct (Hc eq_refl eq_refl) as (-> & ->); unfold backend_step; cbn;
  repeat match goal with H : ?x = _ |- context [?x] => rewrite H end; auto.
Qed.

(* when the proxied system cannot move, the direct system in the corresponding state cannot either *)
Lemma stuck_pres : forall sc s, pinv sc s -> stuck_p sc s -> stuck_d sc (abs s).
Proof.
  intros sc s Hi Hst.
  pose proof (Hst PClient) as Hc; pose proof (Hst PBackend) as Hb;
  pose proof (Hst PMain) as Hm; pose proof (Hst PPump) as Hp. clear Hst.
  intros q; destruct q; unfold abs; cbn.
  - cbn in Hc. destruct (client_step _ _ (front s) (pcl s)) as [[? ?]|] eqn:E; [discriminate|].
    rewrite client_stuck_joined; auto. intros Hk. pose proof (client_stuck_final _ _ _ _ E Hk) as Hf.
    clear E Hc Hb Hp. open s Hi. cases Hm; by_cs sc.
  - cbn in Hb. destruct (opened s) eqn:Eo.
    + destruct (backend_step _ (back s) (pbk s)) as [[? ?]|] eqn:E; [discriminate|].
      rewrite backend_stuck_joined; auto. intros Hd Hcl.
      clear E Hb Hc. open s Hi. cases Hm; cases Hp; by_cs sc.
    + exfalso. clear Hb Hc Hp. open s Hi. cases Hm; by_cs sc.
Qed.

Lemma stuck_opened : forall sc s, pinv sc s -> step_p sc PMain s = None -> bmd s = s_reqmd sc.
Proof.
  intros sc s Hi Hm. open s Hi.
  cases Hm; destruct (client_streams (s_shape sc)); prune; auto.
Qed.

Lemma steps_snoc : forall St Pid (step : Pid -> St -> option St) n a b, steps step n a b ->
  forall p c, step p b = Some c -> steps step (S n) a c.
Proof.
  induction 1 as [s|n q s s1 t Hq Hr IH]; intros p c Hp.
  - econstructor; eauto. constructor.
  - econstructor; eauto.
Qed.

(* every step of the proxied system is a step of the direct system or leaves its abstraction unchanged *)
Lemma sim_step : forall sc p s s', pinv sc s -> step_p sc p s = Some s' ->
  pinv sc s' /\ (abs s' = abs s \/ exists q, step_d sc q (abs s) = Some (abs s')).
Proof.
  intros sc p s s' Hi Hs. destruct p.
  - destruct (sim_client _ _ _ Hi Hs); eauto.
  - destruct (sim_backend _ _ _ Hi Hs); eauto.
  - destruct (sim_main _ _ _ Hi Hs); eauto.
  - destruct (sim_pump _ _ _ Hi Hs); eauto.
Qed.

Lemma run_p_sim : forall sc sched s n, pinv sc s -> steps (step_d sc) n (init_d sc) (abs s) ->
  pinv sc (run_p sc sched s) /\ exists n', steps (step_d sc) n' (init_d sc) (abs (run_p sc sched s)).
Proof.
  intros sc sched. induction sched as [|p r IH]; intros s n Hi Hn; cbn.
  - eauto.
  - destruct (step_p sc p s) as [s'|] eqn:E; [|eauto].
    destruct (sim_step _ _ _ _ Hi E) as (Hi' & [Heq | (q & Hq)]).
    + rewrite <- Heq in Hn. eauto.
    + eapply IH; eauto. eapply steps_snoc; eauto.
Qed.

Lemma reach_sim : forall sc sched,
  pinv sc (run_p sc sched (init_p sc)) /\
  exists n, steps (step_d sc) n (init_d sc) (abs (run_p sc sched (init_p sc))).
Proof.
  intros sc sched. eapply run_p_sim; [apply pinv_init|]. rewrite abs_init. constructor.
Qed.

Lemma transcript_abs : forall sc s, pinv sc s -> stuck_p sc s -> transcript_p s = transcript_d sc (abs s).
Proof.
  intros sc s Hi Hst. unfold transcript_p, transcript_d. cbn.
  rewrite (stuck_opened sc s Hi (Hst PMain)). reflexivity.
Qed.

(* the resting state of a proxied run is, up to the handler's buffers, the resting state of every direct run *)
Theorem proxy_refines_direct : forall sc sp sd,
  stuck_p sc (run_p sc sp (init_p sc)) -> stuck_d sc (run_d sc sd (init_d sc)) ->
  abs (run_p sc sp (init_p sc)) = run_d sc sd (init_d sc).
Proof.
  intros sc sp sd Hp Hd.
  destruct (reach_sim sc sp) as (Hi & n & Hn).
  destruct (run_d_steps sc sd (init_d sc)) as (m & Hm).
  eapply steps_d_unique; eauto using dinv_init. apply stuck_pres; auto.
Qed.

Theorem transparent : forall sc sp sd,
  stuck_p sc (run_p sc sp (init_p sc)) -> stuck_d sc (run_d sc sd (init_d sc)) ->
  transcript_p (run_p sc sp (init_p sc)) = transcript_d sc (run_d sc sd (init_d sc)).
Proof.
  intros sc sp sd Hp Hd.
  rewrite <- (proxy_refines_direct sc sp sd Hp Hd).
  apply transcript_abs; auto. apply reach_sim.
Qed.

Definition rank_m (m : mpc) : nat :=
  match m with
  | MOpen => 5 | MFirstRecv => 4 | MFirstSend _ => 3 | MRecv => 2
  | MSend [] None => 3 | MSend _ None => 2 | MSend _ (Some _) => 1 | MDone => 0
  end.
Definition rank_p (p : ppc) : nat := match p with PDone => 0 | _ => 1 end.
Definition measure (s : pstate) : nat :=
  5 * length (cpc (pcl s)) + (match cfin (pcl s) with None => 1 | Some _ => 0 end) +
  5 * length (bpc (pbk s)) + (if bdone (pbk s) then 0 else 1) +
  4 * length (up (front s)) + 3 * length (hand_up s) + 2 * length (up (back s)) +
  4 * length (down (back s)) + 3 * length (hand_down s) + 2 * length (down (front s)) +
  rank_m (pm s) + rank_p (pp s).

(* Client and backend lower their own part of the measure, whichever call they run on; the
   weights of the two ends of a call are those of [measure] for front and back. *)
Definition cl_rank (k : cst) := 5 * length (cpc k) + match cfin k with None => 1 | Some _ => 0 end.
Definition bk_rank (b : bst) := 5 * length (bpc b) + if bdone b then 0 else 1.

Lemma client_lowers cs ss c k c' k' : client_step cs ss c k = Some (c', k') ->
  cl_rank k' + 4 * length (up c') + 2 * length (down c') < cl_rank k + 4 * length (up c) + 2 * length (down c).
Proof.
  destruct c as [cu cc cd cf], k as [kp kr kf]. intros Hs.
  cases Hs; unfold cl_rank; cbn -[Nat.mul]; rewrite ?app_length; cbn -[Nat.mul]; lia.
Qed.

Lemma backend_lowers fin c b c' b' : backend_step fin c b = Some (c', b') ->
  bk_rank b' + 2 * length (up c') + 4 * length (down c') < bk_rank b + 2 * length (up c) + 4 * length (down c).
Proof.
  destruct c as [cu cc cd cf], b as [bp br be bd]. intros Hs.
  cases Hs; unfold bk_rank; cbn -[Nat.mul]; rewrite ?app_length; cbn -[Nat.mul]; lia.
Qed.

Lemma step_lowers : forall sc q s s', step_p sc q s = Some s' -> measure s' < measure s.
Proof.
  intros sc q s s' Hs. destruct q.
  - cbn in Hs. destruct (client_step _ _ (front s) (pcl s)) as [[c k]|] eqn:E; inv_some.
    apply client_lowers in E. unfold measure, hand_up, hand_down, cl_rank in *. cbn -[Nat.mul]. lia.
  - cbn in Hs. destruct (opened s); [|discriminate].
    destruct (backend_step _ (back s) (pbk s)) as [[c b]|] eqn:E; inv_some.
    apply backend_lowers in E. unfold measure, hand_up, hand_down, bk_rank in *. cbn -[Nat.mul]. lia.
  - destruct s as [[fu fc fd ff] [bu bc bd bf] [cp cr cf] [kp kr ke kd] m p op bm].
    cases Hs; unfold measure, hand_up, hand_down; cbn -[Nat.mul]; rewrite ?app_length; cbn -[Nat.mul]; try lia.
    destruct bd; cbn; lia.
  - destruct s as [[fu fc fd ff] [bu bc bd bf] [cp cr cf] [kp kr ke kd] m p op bm].
    cases Hs; unfold measure, hand_up, hand_down; cbn -[Nat.mul]; rewrite ?app_length; cbn -[Nat.mul]; lia.
Qed.

Lemma steps_bounded : forall sc n s t, steps (step_p sc) n s t -> n + measure t <= measure s.
Proof.
  induction 1 as [s|n p s s1 t Hp _ IH]; [lia|].
  pose proof (step_lowers _ _ _ _ Hp). lia.
Qed.

Lemma run_p_steps : forall sc sched s, exists n, steps (step_p sc) n s (run_p sc sched s).
Proof.
  intros sc sched. induction sched as [|p r IH]; intros s; cbn.
  - exists 0. constructor.
  - destruct (step_p sc p s) as [s'|] eqn:E.
    + destruct (IH s') as (n & Hn). exists (S n). econstructor; eauto.
    + apply IH.
Qed.

Lemma is_stuck_p_spec : forall sc s, is_stuck_p sc s = true <-> stuck_p sc s.
Proof.
  intros sc s. unfold is_stuck_p, stuck_p. split.
  - intros H p.
    destruct (step_p sc PClient s) eqn:E1; [discriminate|].
    destruct (step_p sc PBackend s) eqn:E2; [discriminate|].
    destruct (step_p sc PMain s) eqn:E3; [discriminate|].
    destruct (step_p sc PPump s) eqn:E4; [discriminate|].
    destruct p; assumption.
  - intros H. rewrite (H PClient), (H PBackend), (H PMain), (H PPump). reflexivity.
Qed.

(* every schedule can be continued to a resting state; no schedule makes more than
   measure (init_p sc) effective steps *)
Lemma comes_to_rest : forall k sc s, measure s <= k -> exists sched, stuck_p sc (run_p sc sched s).
Proof.
  induction k as [|k IH]; intros sc s Hk.
  - exists []. cbn. intros p. destruct (step_p sc p s) as [s'|] eqn:E; [|reflexivity].
    pose proof (step_lowers _ _ _ _ E). lia.
  - destruct (is_stuck_p sc s) eqn:E.
    + exists []. cbn. apply is_stuck_p_spec; assumption.
    + assert (exists p s', step_p sc p s = Some s') as (p & s' & Hp).
      { unfold is_stuck_p in E.
        destruct (step_p sc PClient s) eqn:E1; [eauto|].
        destruct (step_p sc PBackend s) eqn:E2; [eauto|].
        destruct (step_p sc PMain s) eqn:E3; [eauto|].
        destruct (step_p sc PPump s) eqn:E4; [eauto|]. discriminate. }
      pose proof (step_lowers _ _ _ _ Hp).
      destruct (IH sc s') as (sched & Hs); [lia|].
      exists (p :: sched). cbn. rewrite Hp. assumption.
Qed.

Lemma run_p_app : forall sc a b s, run_p sc (a ++ b) s = run_p sc b (run_p sc a s).
Proof.
  intros sc a b. induction a as [|p r IH]; intros s; cbn; [reflexivity|].
  destruct (step_p sc p s); apply IH.
Qed.

Theorem terminates : forall sc sched, exists more, stuck_p sc (run_p sc (sched ++ more) (init_p sc)).
Proof.
  intros sc sched.
  destruct (comes_to_rest (measure (run_p sc sched (init_p sc))) sc (run_p sc sched (init_p sc)) (le_n _)) as (more & Hm).
  exists more. rewrite run_p_app. assumption.
Qed.

Lemma client_done_idle : forall sc n c cr f b,
  run_d sc (repeat DClient n) (DState c (Cst [] cr (Some f)) b) = DState c (Cst [] cr (Some f)) b.
Proof. intros sc n. induction n as [|n IH]; intros; cbn; [reflexivity|apply IH]. Qed.

Lemma client_skip : forall sc o r c cr b,
  client_streams (s_shape sc) = false -> (o <> CRecv) ->
  step_d sc DClient (DState c (Cst (o :: r) cr None) b) = Some (DState c (Cst r cr None) b).
Proof.
  intros sc o r c cr b Hcs Ho. cbn. unfold client_step. cbn. rewrite Hcs.
  destruct o; [reflexivity|congruence|reflexivity].
Qed.

Lemma client_final : forall sc r c cr f b,
  server_streams (s_shape sc) = false -> cfinal c = Some f ->
  (forall o r', r = o :: r' -> o = CRecv) ->
  step_d sc DClient (DState c (Cst r cr None) b) =
  Some (DState c (Cst [] (cr ++ (if ok f then down c else [])) (Some f)) b).
Proof.
  intros sc r c cr f b Hss Hf Hr. cbn. unfold client_step. cbn.
  destruct r as [|o r']; [|rewrite (Hr o r' eq_refl)]; unfold client_recv; rewrite Hss, Hf; reflexivity.
Qed.

Lemma client_drain : forall sc cops c cr f b,
  client_streams (s_shape sc) = false -> server_streams (s_shape sc) = false -> cfinal c = Some f ->
  run_d sc (repeat DClient (S (length cops))) (DState c (Cst cops cr None) b) =
  DState c (Cst [] (cr ++ (if ok f then down c else [])) (Some f)) b.
Proof.
  intros sc cops. induction cops as [|o r IH]; intros c cr f b Hcs Hss Hf.
  - cbn [length repeat run_d]. rewrite (client_final sc [] c cr f b Hss Hf); [reflexivity|discriminate].
  - change (repeat DClient (S (length (o :: r)))) with (DClient :: repeat DClient (S (length r))).
    cbn [run_d].
    destruct o.
    + rewrite client_skip by (auto; discriminate). apply IH; auto.
    + rewrite (client_final sc (CRecv :: r) c cr f b Hss Hf).
      * apply client_done_idle.
      * intros o r' E. congruence.
    + rewrite client_skip by (auto; discriminate). apply IH; auto.
Qed.

Definition unary_script (req x : list N) (f : fin) (reqmd : md) (cops : list cop) : script :=
  Script Un req cops (BRecv :: (if ok f then [BSend x] else [])) f reqmd.

Lemma run_d_app : forall sc a b d, run_d sc (a ++ b) d = run_d sc b (run_d sc a d).
Proof.
  intros sc a b. induction a as [|p r IH]; intros d; cbn; [reflexivity|].
  destruct (step_d sc p d); apply IH.
Qed.

Lemma unary_direct : forall req x f reqmd cops,
  let sc := unary_script req x f reqmd cops in
  exists sd, stuck_d sc (run_d sc sd (init_d sc)) /\
    transcript_d sc (run_d sc sd (init_d sc)) =
    Transcript [req] false reqmd (if ok f then [x] else []) (Some f).
Proof.
  intros req x f reqmd cops sc.
  exists ([DBackend; DBackend; DBackend] ++ repeat DClient (S (length cops))).
  rewrite run_d_app.
  assert (run_d sc [DBackend; DBackend; DBackend] (init_d sc) =
          DState (Call [] true (if ok f then [x] else []) (Some f)) (Cst cops [] None) (Bst [] [req] false true)) as ->.
  { unfold sc, unary_script. destruct (ok f); reflexivity. }
  rewrite client_drain with (f := f); [|reflexivity|reflexivity|reflexivity].
  split.
  - intros p. destruct p; reflexivity.
  - unfold transcript_d. cbn. destruct (ok f); reflexivity.
Qed.
