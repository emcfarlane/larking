(* Model/Mount.v: NewServer's pattern table and what `serve` answers from it. `patterns srv`: the
   patterns registered; `table_ok`: they are distinct and plain; `extra_entry`: the table entry of an
   HTTPHandlerOption. The longest claiming pattern owns a path (best_spec, serve_owner); from there
   transparency of mounts, what the mux and the other handlers see, redirects, and acceptance of an
   option list iff it is well formed. *)
From Larking Require Import Base.GoSem Model.Mount Spec.MountSpec.

Local Open Scope nat_scope.

Lemma str_eqb_eq : forall a b, str_eqb a b = true <-> a = b.
Proof.
  induction a as [|x a IH]; intros [|y b]; cbn [str_eqb]; split; intros H; try reflexivity; try discriminate.
  - apply andb_true_iff in H. destruct H as [H1 H2]. apply N.eqb_eq in H1. apply IH in H2. subst. reflexivity.
  - inversion H; subst. rewrite N.eqb_refl. cbn. apply IH. reflexivity.
Qed.
Lemma str_eqb_refl : forall a, str_eqb a a = true.
Proof. exact (eqb_refl_of _ str_eqb_eq). Qed.
Lemma str_eqb_neq : forall a b, str_eqb a b = false <-> a <> b.
Proof. exact (eqb_neq_of _ str_eqb_eq). Qed.

Lemma has_prefix_iff : forall p s, has_prefix p s = true <-> exists r, s = p ++ r.
Proof. apply (prefix_test_spec N.eqb _ N.eqb_eq); reflexivity. Qed.

Lemma has_prefix_app : forall p r, has_prefix p (p ++ r) = true.
Proof. intros. apply has_prefix_iff. exists r. reflexivity. Qed.

Lemma drop_prefix_app : forall p r, drop_prefix p (p ++ r) = Some r.
Proof. induction p as [|x p IH]; intros r; cbn [drop_prefix app]; [reflexivity|]. rewrite N.eqb_refl. apply IH. Qed.

Lemma drop_prefix_some : forall p s r, drop_prefix p s = Some r -> s = p ++ r.
Proof.
  induction p as [|x p IH]; intros s r H; cbn [drop_prefix] in H.
  - inversion H. reflexivity.
  - destruct s as [|y s]; [discriminate|]. destruct (N.eqb x y) eqn:E; [|discriminate].
    apply N.eqb_eq in E. subst. apply IH in H. subst. reflexivity.
Qed.

Lemma ends_slash_app : forall p, ends_slash (p ++ [slash]) = true.
Proof.
  induction p as [|x p IH]; [reflexivity|].
  cbn [app ends_slash]. destruct (p ++ [slash]) eqn:E; [destruct p; discriminate | exact IH].
Qed.

Lemma ends_slash_cons : forall c s, s <> [] -> ends_slash (c :: s) = ends_slash s.
Proof. intros c [|y s] H; [contradiction | reflexivity]. Qed.

Lemma ends_slash_app_r : forall p x, x <> [] -> ends_slash (p ++ x) = ends_slash x.
Proof.
  induction p as [|c p IH]; intros x Hx; [reflexivity|].
  cbn [app]. rewrite ends_slash_cons; [apply IH; exact Hx | destruct p; cbn; [exact Hx | discriminate]].
Qed.

Lemma has_prefix_firstn : forall p s, has_prefix p s = true -> p = firstn (length p) s.
Proof.
  intros p s H. apply has_prefix_iff in H. destruct H as [r Hr]. subst.
  rewrite firstn_app, Nat.sub_diag, firstn_all. cbn. rewrite app_nil_r. reflexivity.
Qed.

Lemma claims_firstn : forall q path, claims q path = true -> q = firstn (length q) path.
Proof.
  intros q path H. unfold claims in H. destruct (ends_slash q).
  - apply has_prefix_firstn. exact H.
  - apply str_eqb_eq in H. subst. rewrite firstn_all. reflexivity.
Qed.

Lemma claims_length : forall q path, claims q path = true -> length q <= length path.
Proof.
  intros q path H. apply claims_firstn in H. rewrite H, firstn_length. lia.
Qed.

Lemma claims_same_length : forall q1 q2 path,
  claims q1 path = true -> claims q2 path = true -> length q1 = length q2 -> q1 = q2.
Proof.
  intros q1 q2 path H1 H2 L. apply claims_firstn in H1. apply claims_firstn in H2.
  rewrite H1, H2, L. reflexivity.
Qed.

Lemma claims_subtree : forall p r, claims (p ++ [slash]) (p ++ [slash] ++ r) = true.
Proof.
  intros p r. unfold claims. rewrite ends_slash_app. rewrite app_assoc. apply has_prefix_app.
Qed.

Lemma claims_self : forall q, claims q q = true.
Proof.
  intros q. unfold claims. destruct (ends_slash q); [|apply str_eqb_refl].
  rewrite <- (app_nil_r q) at 2. apply has_prefix_app.
Qed.

(* what best compares: an accumulator that holds nothing is below every entry *)
Definition wt (o : option entry) : nat :=
  match o with Some a => S (length (e_pat a)) | None => 0 end.

Lemma best_cons : forall e t path acc,
  best (e :: t) path acc =
  best t path (if claims (e_pat e) path && (wt acc <? wt (Some e)) then Some e else acc).
Proof.
  intros e t path acc. cbn [best]. destruct (claims (e_pat e) path); [|reflexivity].
  destruct acc as [a|]; [|reflexivity].
  change (wt (Some a) <? wt (Some e)) with (length (e_pat a) <? length (e_pat e)).
  destruct (length (e_pat a) <? length (e_pat e)); reflexivity.
Qed.

(* the result is the accumulator or a matching entry, and nothing that was considered weighs more *)
Lemma best_spec : forall t path acc,
  (best t path acc = acc \/ exists r, best t path acc = Some r /\ In r t /\ claims (e_pat r) path = true) /\
  wt acc <= wt (best t path acc) /\
  (forall e, In e t -> claims (e_pat e) path = true -> wt (Some e) <= wt (best t path acc)).
Proof.
  induction t as [|e t IH]; intros path acc.
  - cbn [best]. split; [left; reflexivity|]. split; [lia|intros e []].
  - rewrite best_cons. set (acc' := if claims (e_pat e) path && (wt acc <? wt (Some e)) then Some e else acc).
    assert (S : (acc' = acc \/ acc' = Some e /\ claims (e_pat e) path = true) /\ wt acc <= wt acc' /\
                (claims (e_pat e) path = true -> wt (Some e) <= wt acc')).
    { unfold acc'. destruct (claims (e_pat e) path); cbn [andb].
      - destruct (wt acc <? wt (Some e)) eqn:L; [apply Nat.ltb_lt in L|apply Nat.ltb_ge in L]; auto with arith.
      - split; [left; reflexivity|]. split; [lia|discriminate]. }
    destruct S as (S1 & S2 & S3), (IH path acc') as (I1 & I2 & I3). split; [|split].
    + destruct I1 as [->|(r & -> & Ir & Cr)].
      * destruct S1 as [->|[-> C]]; [left; reflexivity|]. right. exists e. split; [reflexivity|]. split; [left; reflexivity|exact C].
      * right. exists r. split; [reflexivity|]. split; [right; exact Ir|exact Cr].
    + lia.
    + intros e0 [<-|I0] C0; [specialize (S3 C0); lia|apply I3; assumption].
Qed.

Lemma best_some : forall t path r,
  best t path None = Some r ->
  In r t /\ claims (e_pat r) path = true /\
  (forall e, In e t -> claims (e_pat e) path = true -> length (e_pat e) <= length (e_pat r)).
Proof.
  intros t path r H. destruct (best_spec t path None) as ([E|(r' & E & I & C)] & _ & M); rewrite H in *; [discriminate|].
  injection E as <-. split; [exact I|]. split; [exact C|]. intros e Ie Ce. specialize (M e Ie Ce). cbn [wt] in M. lia.
Qed.

Lemma best_none : forall t path, best t path None = None -> forall e, In e t -> claims (e_pat e) path = false.
Proof.
  intros t path H e I. destruct (best_spec t path None) as (_ & _ & M). rewrite H in M.
  destruct (claims (e_pat e) path) eqn:C; [|reflexivity]. specialize (M e I C). cbn [wt] in M. lia.
Qed.

(* the longest matching pattern of a table without duplicates is what best returns *)
Lemma best_owner : forall t path e,
  NoDup (map e_pat t) -> In e t -> claims (e_pat e) path = true ->
  (forall q, In q (map e_pat t) -> claims q path = true -> length q <= length (e_pat e)) ->
  best t path None = Some e.
Proof.
  intros t path e ND I C M.
  destruct (best t path None) as [r|] eqn:B; [|rewrite (best_none _ _ B e I) in C; discriminate].
  destruct (best_some _ _ _ B) as (Ir & Cr & Mr). f_equal.
  apply (NoDup_map_inj e_pat t); try assumption.
  eapply claims_same_length; try eassumption.
  specialize (M _ (in_map e_pat _ _ Ir) Cr). specialize (Mr e I C). lia.
Qed.

Definition table_ok (t : list entry) : Prop :=
  NoDup (map e_pat t) /\ Forall (fun e => plain (e_pat e) = true) t.

Lemma has_pat_true : forall t p, has_pat t p = true <-> In p (map e_pat t).
Proof.
  intros t p. unfold has_pat. rewrite existsb_exists. split.
  - intros [e [I E]]. apply str_eqb_eq in E. subst. apply in_map. exact I.
  - intros I. apply in_map_iff in I. destruct I as [e [E I]]. exists e. split; [exact I | apply str_eqb_eq; exact E].
Qed.

Lemma register_ok : forall t pat nilh tg t',
  register t pat nilh tg = ROk t' ->
  t' = t ++ [mk_entry pat tg] /\ nilh = false /\ plain pat = true /\ ~ In pat (map e_pat t).
Proof.
  intros t pat nilh tg t' H. unfold register in H.
  destruct pat as [|c pat]; [discriminate|].
  destruct nilh; [discriminate|]. destruct (plain (c :: pat)) eqn:P; cbn [negb] in H; [|discriminate].
  destruct (has_pat t (c :: pat)) eqn:HP; [discriminate|]. inversion H; subst.
  repeat split. rewrite <- has_pat_true, HP. discriminate.
Qed.

Lemma register_complete : forall t pat tg,
  plain pat = true -> ~ In pat (map e_pat t) -> register t pat false tg = ROk (t ++ [mk_entry pat tg]).
Proof.
  intros t pat tg P N. unfold register. destruct pat as [|c pat]; [discriminate P|].
  rewrite P. cbn [negb]. destruct (has_pat t (c :: pat)) eqn:H; [|reflexivity].
  apply has_pat_true in H. contradiction.
Qed.

Lemma table_ok_snoc : forall t pat tg,
  table_ok t -> plain pat = true -> ~ In pat (map e_pat t) -> table_ok (t ++ [mk_entry pat tg]).
Proof.
  intros t pat tg [ND PL] P N. split.
  - rewrite map_app. cbn [map e_pat]. apply NoDup_snoc; assumption.
  - apply Forall_app. split; [exact PL | constructor; [exact P | constructor]].
Qed.

Definition extra_entry (ie : nat * str) : entry := mk_entry (snd ie) (TExtra (fst ie)).

Definition is_some {A} (o : option A) : bool := match o with Some _ => true | None => false end.

Lemma apply_opts_ok : forall opts i t pats t' pats',
  apply_opts opts i t pats = OOk t' pats' -> table_ok t ->
  t' = t ++ map extra_entry (opt_extras opts i) /\ table_ok t' /\
  pats' = match pats with Some l => Some l | None => opt_mounts_raw opts end /\
  mux_dup (is_some pats) opts = false /\ nil_handler_free opts = true.
Proof.
  induction opts as [|o opts IH]; intros i t pats t' pats' H OK.
  - cbn in H. inversion H; subst. cbn. rewrite app_nil_r. do 2 (split; [auto|]). split; [|auto]. destruct pats'; reflexivity.
  - destruct o as [|ps|pat nilh]; cbn [apply_opts] in H.
    + apply IH in H; [|exact OK]. exact H.
    + destruct pats as [l|]; [discriminate|]. apply IH in H; [|exact OK].
      destruct H as (H1 & H2 & H3 & H4 & H5). cbn [opt_extras]. do 2 (split; [assumption|]). split; [|split; [|exact H5]].
      * cbn [opt_mounts_raw]. destruct ps as [l|]; exact H3.
      * cbn [mux_dup is_some orb]. destruct ps; exact H4.
    + destruct (register t pat nilh (TExtra i)) as [t1| |] eqn:R; try discriminate.
      apply register_ok in R. destruct R as [R1 [R2 [R3 R4]]]. subst t1 nilh.
      apply IH in H; [|apply table_ok_snoc; assumption].
      destruct H as (H1 & H2 & H3). cbn [opt_extras opt_mounts_raw map]. split; [|split; [exact H2|exact H3]].
      rewrite H1, <- app_assoc. reflexivity.
Qed.

Lemma reg_mounts_ok : forall ps t t',
  reg_mounts ps t = ROk t' -> table_ok t -> t' = t ++ map mount_entry ps /\ table_ok t'.
Proof.
  induction ps as [|p ps IH]; intros t t' H OK; cbn [reg_mounts] in H.
  - inversion H; subst. cbn. rewrite app_nil_r. split; [reflexivity | exact OK].
  - destruct (register t (e_pat (mount_entry p)) false (e_tgt (mount_entry p))) as [t1| |] eqn:R; try discriminate.
    apply register_ok in R. destruct R as [R1 [_ [R3 R4]]]. subst t1.
    apply IH in H; [|apply table_ok_snoc; assumption]. destruct H as [H1 H2]. split; [|exact H2].
    rewrite H1, <- app_assoc. reflexivity.
Qed.

Lemma new_server_ok : forall nm opts srv,
  new_server nm opts = NSOk srv ->
  nm = false /\ s_mounts srv = opt_mounts opts /\
  s_tbl srv = map extra_entry (opt_extras opts 0) ++ map mount_entry (opt_mounts opts) /\
  table_ok (s_tbl srv).
Proof.
  intros nm opts srv H. unfold new_server in H. destruct nm; [discriminate|].
  destruct (apply_opts opts 0 [] None) as [t pats| | |] eqn:A; try discriminate.
  apply apply_opts_ok in A; [|split; constructor]. destruct A as (A1 & A2 & A3 & _). cbn [app] in A1. subst t pats.
  assert (E : effective_mounts (opt_mounts_raw opts) = opt_mounts opts) by reflexivity.
  rewrite E in H.
  destruct (reg_mounts (opt_mounts opts) (map extra_entry (opt_extras opts 0))) as [t'| |] eqn:R; try discriminate.
  apply reg_mounts_ok in R; [|exact A2]. destruct R as [R1 R2]. inversion H; subst. cbn [s_tbl s_mounts].
  split; [reflexivity|split; [reflexivity|split; [reflexivity|exact R2]]].
Qed.

Lemma in_table : forall opts srv e,
  new_server false opts = NSOk srv -> In e (s_tbl srv) ->
  (exists ie, In ie (opt_extras opts 0) /\ e = extra_entry ie) \/ (exists m, In m (s_mounts srv) /\ e = mount_entry m).
Proof.
  intros opts srv e H I. apply new_server_ok in H. destruct H as [_ [H1 [H2 _]]]. rewrite H2 in I.
  apply in_app_or in I. destruct I as [I|I]; apply in_map_iff in I; destruct I as [y [E I]].
  - left. exists y. split; [exact I | symmetry; exact E].
  - right. exists y. rewrite H1. split; [exact I | symmetry; exact E].
Qed.

Lemma mount_in_table : forall opts srv m,
  new_server false opts = NSOk srv -> In m (s_mounts srv) -> In (mount_entry m) (s_tbl srv).
Proof.
  intros opts srv m H I. apply new_server_ok in H. destruct H as [_ [H1 [H2 _]]]. rewrite H2. rewrite H1 in I.
  apply in_or_app. right. apply in_map. exact I.
Qed.

Lemma extra_in_table : forall opts srv ie,
  new_server false opts = NSOk srv -> In ie (opt_extras opts 0) -> In (extra_entry ie) (s_tbl srv).
Proof.
  intros opts srv ie H I. apply new_server_ok in H. destruct H as [_ [_ [H2 _]]]. rewrite H2.
  apply in_or_app. left. apply in_map. exact I.
Qed.

Lemma opt_extras_from : forall opts k i pat,
  In (i, pat) (opt_extras opts k) <-> exists j, i = k + j /\ nth_error opts j = Some (OHandler pat false).
Proof.
  induction opts as [|o opts IH]; intros k i pat; cbn [opt_extras].
  - split; [intros []|intros [[|j] [_ H]]; discriminate].
  - (* the head option, which is number k, or one of the tail, numbered from S k *)
    transitivity ((i = k /\ o = OHandler pat false) \/ In (i, pat) (opt_extras opts (S k))).
    + destruct o as [| |p [|]]; cbn [In].
      1-3: split; [auto | intros [[_ X]|X]; [discriminate | exact X]].
      split; [intros [[= <- <-]|X] | intros [[-> [= ->]]|X]]; auto.
    + rewrite IH. split.
      * intros [[-> ->]|[j [-> X]]]; [exists 0|exists (S j)]; (split; [lia|exact X || reflexivity]).
      * intros [[|j] [-> X]]; [left; injection X as ->; split; [lia|reflexivity]|right; exists j; split; [lia|exact X]].
Qed.

Lemma opt_extras_nth : forall opts i pat,
  In (i, pat) (opt_extras opts 0) <-> nth_error opts i = Some (OHandler pat false).
Proof.
  intros opts i pat. rewrite opt_extras_from. cbn [Nat.add]. split; [intros [j [-> H]]; exact H|eauto].
Qed.

Lemma strip_serve_app : forall p x, strip_serve p (p ++ x) = ToMux x.
Proof.
  intros p x. unfold strip_serve. destruct p as [|c p]; [reflexivity|].
  rewrite drop_prefix_app. rewrite app_length. cbn [length].
  destruct (length x <? S (length p) + length x) eqn:L; [reflexivity|]. apply Nat.ltb_ge in L. lia.
Qed.

Lemma run_mount_entry : forall m path,
  claims (e_pat (mount_entry m)) path = true ->
  exists r, path = mount_prefix m ++ slash :: r /\ run_entry (mount_entry m) path = ToMux (slash :: r).
Proof.
  intros m path H. cbn [mount_entry e_pat] in H. unfold claims in H. rewrite ends_slash_app in H.
  apply has_prefix_iff in H. destruct H as [r ->]. exists r. rewrite <- app_assoc. split; [reflexivity|].
  apply strip_serve_app.
Qed.

Definition patterns (s : server) : list str := map e_pat (s_tbl s).

Lemma in_patterns : forall s q, In q (patterns s) <-> exists e, In e (s_tbl s) /\ e_pat e = q.
Proof. intros s q. unfold patterns. rewrite in_map_iff. split; intros [e [A B]]; exists e; tauto. Qed.

(* a handler runs only as the longest matching entry; the 404 page only when no entry matches *)
Lemma serve_inv : forall s path,
  serve s path = RedirectClean \/
  (exists e, In e (s_tbl s) /\ claims (e_pat e) path = true /\
             (forall e', In e' (s_tbl s) -> claims (e_pat e') path = true -> length (e_pat e') <= length (e_pat e)) /\
             serve s path = run_entry e path) \/
  serve s path = Redirect (path ++ [slash]) \/
  (serve s path = NotFound /\ forall e, In e (s_tbl s) -> claims (e_pat e) path = false).
Proof.
  intros s path. unfold serve. destruct (negb (is_clean path)); [left; reflexivity|right].
  destruct (best (s_tbl s) path None) as [e|] eqn:B.
  - destruct (best_some _ _ _ B) as (I & C & M).
    destruct (str_eqb (e_pat e) path); [left; exists e; auto|].
    destruct (negb (ends_slash path) && has_pat (s_tbl s) (path ++ [slash])); [right; left; reflexivity|left; exists e; auto].
  - right. destruct (negb (ends_slash path) && has_pat (s_tbl s) (path ++ [slash])); [left; reflexivity|right].
    split; [reflexivity|exact (best_none _ _ B)].
Qed.

Lemma serve_owner : forall s path e,
  NoDup (patterns s) -> is_clean path = true ->
  In e (s_tbl s) -> claims (e_pat e) path = true ->
  (forall q, In q (patterns s) -> claims q path = true -> length q <= length (e_pat e)) ->
  (e_pat e = path \/ ends_slash path = true \/ ~ In (path ++ [slash]) (patterns s)) ->
  serve s path = run_entry e path.
Proof.
  intros s path e ND CL I C M R. unfold serve. rewrite CL. cbn [negb].
  rewrite (best_owner _ _ e ND I C M).
  destruct (str_eqb (e_pat e) path) eqn:E; [reflexivity|].
  destruct R as [R|[R|R]].
  - apply str_eqb_neq in E. contradiction.
  - rewrite R. reflexivity.
  - destruct (has_pat (s_tbl s) (path ++ [slash])) eqn:HP; [apply has_pat_true in HP; contradiction|].
    rewrite andb_false_r. reflexivity.
Qed.

(* transparency: under the mount with prefix p, a path p ++ x that this mount owns reaches the mux as x *)
Lemma transparent : forall opts srv m x,
  new_server false opts = NSOk srv -> In m (s_mounts srv) ->
  let p := mount_prefix m in
  let path := p ++ slash :: x in
  is_clean path = true ->
  (forall q, In q (patterns srv) -> claims q path = true -> length q <= length (p ++ [slash])) ->
  (ends_slash path = false -> ~ In (path ++ [slash]) (patterns srv)) ->
  serve srv path = ToMux (slash :: x).
Proof.
  intros opts srv m x H I p path CL M R.
  pose proof (mount_in_table _ _ _ H I) as IT.
  pose proof (new_server_ok _ _ _ H) as [_ [_ [_ [ND _]]]].
  assert (C : claims (e_pat (mount_entry m)) path = true).
  { cbn [mount_entry e_pat]. apply (claims_subtree (mount_prefix m) x). }
  rewrite (serve_owner srv path (mount_entry m) ND CL IT C).
  - destruct (run_mount_entry _ _ C) as [r [E1 E2]]. rewrite E2. f_equal.
    unfold path, p in E1. apply app_inv_head in E1. symmetry. exact E1.
  - exact M.
  - destruct (ends_slash path) eqn:ES; [right; left; reflexivity | right; right; apply R; reflexivity].
Qed.

(* whatever reaches the mux lies under a mount prefix and arrives without it *)
Lemma mux_only_under_mount : forall opts srv path x,
  new_server false opts = NSOk srv -> serve srv path = ToMux x ->
  exists m, In m (s_mounts srv) /\ path = mount_prefix m ++ x /\ has_prefix [slash] x = true /\
            has_prefix (mount_prefix m ++ [slash]) path = true /\
            (forall q, In q (patterns srv) -> claims q path = true -> length q <= length (mount_prefix m ++ [slash])).
Proof.
  intros opts srv path x H S.
  destruct (serve_inv srv path) as [A|[(e & Ie & Ce & Mx & E)|[A|[A _]]]]; rewrite S in *; try discriminate.
  destruct (in_table _ _ _ H Ie) as [[ie [_ Ee]]|[m [Im Ee]]]; subst e.
  - discriminate.
  - destruct (run_mount_entry _ _ Ce) as [r [E1 E2]]. rewrite E2 in E. inversion E; subst x.
    exists m. split; [exact Im|]. split; [exact E1|]. split; [reflexivity|]. split.
    + rewrite E1. replace (mount_prefix m ++ slash :: r) with ((mount_prefix m ++ [slash]) ++ r) by (rewrite <- app_assoc; reflexivity).
      apply has_prefix_app.
    + intros q Iq Cq. apply in_patterns in Iq. destruct Iq as [e' [Ie' Ee']]. subst q. apply (Mx e' Ie' Cq).
Qed.

Lemma extra_sees_only_own : forall opts srv path i x,
  new_server false opts = NSOk srv -> serve srv path = ToExtra i x ->
  x = path /\ exists pat, nth_error opts i = Some (OHandler pat false) /\ claims pat path = true.
Proof.
  intros opts srv path i x H S.
  destruct (serve_inv srv path) as [A|[(e & Ie & Ce & _ & E)|[A|[A _]]]]; rewrite S in *; try discriminate.
  destruct (in_table _ _ _ H Ie) as [[[j pat] [Iie Ee]]|[m [Im Ee]]]; subst e.
  - inversion E; subst. split; [reflexivity|]. exists pat. split; [|exact Ce].
    apply opt_extras_nth in Iie. exact Iie.
  - destruct (run_mount_entry _ _ Ce) as [r [_ E2]]. rewrite E2 in E. discriminate.
Qed.

Lemma extra_keeps_pattern : forall opts srv i pat path,
  new_server false opts = NSOk srv -> nth_error opts i = Some (OHandler pat false) ->
  is_clean path = true -> claims pat path = true ->
  (forall q, In q (patterns srv) -> claims q path = true -> length q <= length pat) ->
  (pat = path \/ ends_slash path = true \/ ~ In (path ++ [slash]) (patterns srv)) ->
  serve srv path = ToExtra i path.
Proof.
  intros opts srv i pat path H N CL C M R.
  pose proof (extra_in_table _ _ _ H (proj2 (opt_extras_nth opts i pat) N)) as IT.
  pose proof (new_server_ok _ _ _ H) as [_ [_ [_ [ND _]]]].
  rewrite (serve_owner srv path (extra_entry (i, pat)) ND CL IT C).
  - reflexivity.
  - exact M.
  - exact R.
Qed.

Lemma plain_clean : forall p, plain p = true -> is_clean p = true.
Proof. intros p H. unfold plain in H. apply andb_true_iff in H. tauto. Qed.

Lemma extra_exact : forall opts srv i pat,
  new_server false opts = NSOk srv -> nth_error opts i = Some (OHandler pat false) ->
  serve srv pat = ToExtra i pat.
Proof.
  intros opts srv i pat H N.
  pose proof (extra_in_table _ _ _ H (proj2 (opt_extras_nth opts i pat) N)) as IT.
  pose proof (new_server_ok _ _ _ H) as [_ [_ [_ [_ PL]]]].
  rewrite Forall_forall in PL. specialize (PL _ IT). cbn in PL.
  eapply extra_keeps_pattern; try eassumption.
  - apply plain_clean. exact PL.
  - apply claims_self.
  - intros q _ Cq. apply claims_length. exact Cq.
  - left. reflexivity.
Qed.

(* net/http's 404 page appears only for paths no pattern matches: the StripPrefix wrappers NewServer
   installs never miss *)
Lemma not_found_unclaimed : forall opts srv path,
  new_server false opts = NSOk srv -> serve srv path = NotFound ->
  forall q, In q (patterns srv) -> claims q path = false.
Proof.
  intros opts srv path H S q Iq.
  destruct (serve_inv srv path) as [A|[(e & Ie & Ce & _ & E)|[A|[A N]]]]; rewrite S in *; try discriminate.
  - destruct (in_table _ _ _ H Ie) as [[ie [_ Ee]]|[m [Im Ee]]]; subst e.
    + discriminate.
    + destruct (run_mount_entry _ _ Ce) as [r [_ E2]]. rewrite E2 in E. discriminate.
  - apply in_patterns in Iq. destruct Iq as [e [Ie Ee]]. subst q. apply (N e Ie).
Qed.

(* the bare prefix: "/p" is redirected to "/p/" unless something is registered for "/p" itself *)
Lemma bare_prefix_redirects : forall opts srv m,
  new_server false opts = NSOk srv -> In m (s_mounts srv) ->
  let p := mount_prefix m in
  is_clean p = true -> ends_slash p = false -> ~ In p (patterns srv) ->
  serve srv p = Redirect (p ++ [slash]).
Proof.
  intros opts srv m H I p CL ES NI.
  pose proof (mount_in_table _ _ _ H I) as IT.
  assert (HP : has_pat (s_tbl srv) (p ++ [slash]) = true).
  { apply has_pat_true. apply in_map_iff. exists (mount_entry m). split; [reflexivity | exact IT]. }
  unfold serve. rewrite CL, ES, HP. cbn [negb andb].
  destruct (best (s_tbl srv) p None) as [e|] eqn:B; [|reflexivity].
  destruct (str_eqb (e_pat e) p) eqn:E; [|reflexivity].
  exfalso. apply NI. apply str_eqb_eq in E. destruct (best_some _ _ _ B) as [Ie _].
  apply in_patterns. exists e. split; assumption.
Qed.

Lemma unclean_no_handler : forall srv path, is_clean path = false -> serve srv path = RedirectClean.
Proof. intros srv path H. unfold serve. rewrite H. reflexivity. Qed.

Lemma apply_opts_err : forall opts i t pats e,
  apply_opts opts i t pats = OErr e -> e = EDupPatterns /\ mux_dup (is_some pats) opts = true.
Proof.
  induction opts as [|o opts IH]; intros i t pats e H; [discriminate|].
  destruct o as [|ps|pat nilh]; cbn [apply_opts] in H.
  - apply IH in H. exact H.
  - destruct pats as [l|].
    + inversion H. split; reflexivity.
    + apply IH in H. destruct H as [H1 H2]. split; [exact H1|]. cbn [mux_dup is_some orb]. destruct ps; exact H2.
  - destruct (register t pat nilh (TExtra i)) as [t1| |] eqn:R; try discriminate.
    apply IH in H. exact H.
Qed.

Lemma NoDup_app_mid : forall (A : Type) (l1 l2 : list A) a, NoDup (l1 ++ a :: l2) -> ~ In a l1 /\ NoDup ((l1 ++ [a]) ++ l2).
Proof.
  intros A l1 l2 a H. split.
  - apply NoDup_remove_2 in H. intros I. apply H. apply in_or_app. left. exact I.
  - rewrite <- app_assoc. exact H.
Qed.

Lemma apply_opts_complete : forall opts i t pats,
  mux_dup (is_some pats) opts = false -> nil_handler_free opts = true ->
  NoDup (map e_pat t ++ map snd (opt_extras opts i)) ->
  Forall (fun p => plain p = true) (map snd (opt_extras opts i)) ->
  apply_opts opts i t pats =
    OOk (t ++ map extra_entry (opt_extras opts i)) (match pats with Some l => Some l | None => opt_mounts_raw opts end).
Proof.
  induction opts as [|o opts IH]; intros i t pats D NF ND PL.
  - cbn. rewrite app_nil_r. destruct pats; reflexivity.
  - destruct o as [|ps|pat nilh]; cbn [apply_opts opt_extras opt_mounts_raw].
    + apply IH; assumption.
    + cbn [mux_dup] in D. apply orb_false_iff in D. destruct D as [D1 D2].
      destruct pats as [l|]; [discriminate|]. cbn [opt_extras] in ND, PL.
      rewrite (IH (S i) t ps D2 NF ND PL). destruct ps; reflexivity.
    + cbn [nil_handler_free forallb] in NF. destruct nilh; [discriminate|]. cbn [andb] in NF.
      cbn [opt_extras map snd] in ND, PL. inversion PL as [|? ? P1 P2]; subst.
      apply NoDup_app_mid in ND. destruct ND as [N1 N2].
      rewrite (register_complete t pat (TExtra i) P1 N1).
      cbn [mux_dup] in D.
      rewrite (IH (S i) (t ++ [mk_entry pat (TExtra i)]) pats D NF).
      * cbn [map]. rewrite <- app_assoc. reflexivity.
      * rewrite map_app. exact N2.
      * exact P2.
Qed.

Lemma reg_mounts_complete : forall ps t,
  NoDup (map e_pat t ++ map mount_pat ps) -> Forall (fun p => plain p = true) (map mount_pat ps) ->
  reg_mounts ps t = ROk (t ++ map mount_entry ps).
Proof.
  induction ps as [|p ps IH]; intros t ND PL; cbn [reg_mounts map].
  - rewrite app_nil_r. reflexivity.
  - cbn [map] in ND, PL. inversion PL as [|? ? P1 P2]; subst.
    apply NoDup_app_mid in ND. destruct ND as [N1 N2].
    change (e_pat (mount_entry p)) with (mount_pat p).
    rewrite (register_complete t (mount_pat p) (e_tgt (mount_entry p)) P1 N1).
    rewrite IH.
    + rewrite <- app_assoc. reflexivity.
    + rewrite map_app. exact N2.
    + exact P2.
Qed.

Lemma NoDup_app_l : forall (A : Type) (l1 l2 : list A), NoDup (l1 ++ l2) -> NoDup l1.
Proof.
  intros A l1 l2. induction l2 as [|x l2 IH]; [rewrite app_nil_r; auto|].
  intros H. apply IH. exact (NoDup_remove_1 _ _ _ H).
Qed.

Lemma map_extra_pat : forall l, map e_pat (map extra_entry l) = map snd l.
Proof. intros l. apply map_map. Qed.
Lemma map_mount_pat : forall l, map e_pat (map mount_entry l) = map mount_pat l.
Proof. intros l. apply map_map. Qed.

Lemma accepted_iff_wf : forall opts,
  (exists srv, new_server false opts = NSOk srv) <-> wf_options opts.
Proof.
  intros opts. split.
  - intros [srv H]. pose proof (new_server_ok _ _ _ H) as [_ [_ [T [ND PL]]]].
    unfold new_server in H. destruct (apply_opts opts 0 [] None) as [t pats| | |] eqn:A; try discriminate.
    apply apply_opts_ok in A; [|split; constructor]. destruct A as (_ & _ & _ & A1 & A2). unfold wf_options, config_patterns.
    split; [exact A1|]. split; [exact A2|]. rewrite T in ND, PL.
    rewrite map_app, map_extra_pat, map_mount_pat in ND. split; [exact ND|].
    rewrite <- map_extra_pat, <- map_mount_pat, <- map_app. apply Forall_map. exact PL.
  - intros [D [NF [ND PL]]]. unfold config_patterns in ND, PL. apply Forall_app in PL. destruct PL as [PL1 PL2].
    unfold new_server. rewrite (apply_opts_complete opts 0 [] None D NF).
    + cbn [app]. change (effective_mounts (opt_mounts_raw opts)) with (opt_mounts opts).
      rewrite reg_mounts_complete.
      * eexists. reflexivity.
      * rewrite map_extra_pat. exact ND.
      * exact PL2.
    + cbn [map app]. apply NoDup_app_l in ND. exact ND.
    + exact PL1.
Qed.

Lemma refused_only_dup : forall opts e,
  new_server false opts = NSErr e -> e = EDupPatterns /\ mux_dup false opts = true.
Proof.
  intros opts e H. unfold new_server in H.
  destruct (apply_opts opts 0 [] None) as [t pats|e'| |] eqn:A; try discriminate.
  - destruct (reg_mounts (effective_mounts pats) t); discriminate.
  - inversion H; subst. apply apply_opts_err in A. exact A.
Qed.

Lemma all_pats_patterns : forall opts srv,
  new_server false opts = NSOk srv ->
  forall q, In q (all_pats (opt_mounts opts) (opt_extras opts 0)) <-> In q (patterns srv).
Proof.
  intros opts srv H q. pose proof (new_server_ok _ _ _ H) as [_ [_ [T _]]].
  unfold patterns, all_pats. rewrite T, map_app, map_extra_pat, map_mount_pat.
  rewrite !in_app_iff. tauto.
Qed.

Lemma owns_inv : forall pats q path,
  owns pats q path = true ->
  claims q path = true /\ forall q', In q' pats -> claims q' path = true -> length q' <= length q.
Proof.
  intros pats q path H. unfold owns in H. apply andb_true_iff in H. destruct H as [C F].
  split; [exact C|]. intros q' I C'. rewrite forallb_forall in F. specialize (F q' I).
  rewrite C' in F. cbn in F. apply Nat.leb_le. exact F.
Qed.

Lemma not_redirected_inv : forall pats q path,
  slash_redirected pats path = false -> owns pats q path = true ->
  q = path \/ ends_slash path = true \/ ~ In (path ++ [slash]) pats.
Proof.
  intros pats q path R O. destruct (owns_inv _ _ _ O) as [C M].
  unfold slash_redirected in R. apply andb_false_iff in R. destruct R as [R|R].
  - apply andb_false_iff in R. destruct R as [R|R].
    + apply negb_false_iff in R. apply existsb_exists in R. destruct R as [q' [I' E']].
      apply str_eqb_eq in E'. subst q'. left.
      apply (claims_same_length q path path C (claims_self path)).
      pose proof (M path I' (claims_self path)). pose proof (claims_length _ _ C). lia.
    + right. left. apply negb_false_iff in R. exact R.
  - right. right. intros I. assert (X : existsb (str_eqb (path ++ [slash])) pats = true).
    { apply existsb_exists. exists (path ++ [slash]). split; [exact I | apply str_eqb_refl]. }
    congruence.
Qed.

(* ownership as the specification words it makes the entry the one serve runs *)
Lemma serve_owned : forall opts srv e path,
  new_server false opts = NSOk srv -> In e (s_tbl srv) -> is_clean path = true ->
  owns (all_pats (opt_mounts opts) (opt_extras opts 0)) (e_pat e) path
    && negb (slash_redirected (all_pats (opt_mounts opts) (opt_extras opts 0)) path) = true ->
  serve srv path = run_entry e path.
Proof.
  intros opts srv e path H I CL G. apply andb_true_iff in G. destruct G as [O R]. apply negb_true_iff in R.
  pose proof (all_pats_patterns opts srv H) as PP.
  pose proof (new_server_ok _ _ _ H) as (_ & _ & _ & ND & _).
  destruct (owns_inv _ _ _ O) as [C M].
  apply (serve_owner srv path e ND CL I C).
  - intros q Iq. apply M, PP, Iq.
  - destruct (not_redirected_inv _ _ _ R O) as [X|[X|X]]; [left; exact X|right; left; exact X|].
    right. right. intros I'. apply X, PP, I'.
Qed.

(* the predicate the harness evaluates on the real server holds of the model *)
Lemma spec_sound : forall opts srv path,
  new_server false opts = NSOk srv ->
  spec_ok (opt_mounts opts) (opt_extras opts 0) path (serve srv path) = true.
Proof.
  intros opts srv path H. unfold spec_ok.
  destruct (is_clean path) eqn:CL; cbn [negb].
  2:{ rewrite unclean_no_handler; [reflexivity | exact CL]. }
  pose proof (new_server_ok _ _ _ H) as [_ [SM _]].
  set (pats := all_pats (opt_mounts opts) (opt_extras opts 0)).
  repeat (apply andb_true_iff; split).
  - apply forallb_forall. intros m Im.
    destruct (owns pats (mount_pat m) path && negb (slash_redirected pats path)) eqn:G; [|reflexivity].
    rewrite <- SM in Im. rewrite (serve_owned _ _ _ _ H (mount_in_table _ _ _ H Im) CL G).
    apply andb_true_iff in G. destruct G as [O _].
    destruct (run_mount_entry m path (proj1 (owns_inv _ _ _ O))) as [r [E1 E2]]. rewrite E2. apply str_eqb_eq. symmetry. exact E1.
  - destruct (serve srv path) as [x| | | |] eqn:S; try reflexivity.
    destruct (mux_only_under_mount _ _ _ _ H S) as [m [Im [E [_ [P _]]]]].
    apply existsb_exists. exists m. split; [rewrite <- SM; exact Im|].
    apply andb_true_iff. split; [apply str_eqb_eq; symmetry; exact E | exact P].
  - apply forallb_forall. intros [i pat] Iie. cbn [fst snd].
    destruct (owns pats pat path && negb (slash_redirected pats path)) eqn:G; [|reflexivity].
    rewrite (serve_owned _ _ (extra_entry (i, pat)) _ H (extra_in_table _ _ _ H Iie) CL G).
    unfold run_entry. cbn. rewrite Nat.eqb_refl, str_eqb_refl. reflexivity.
  - destruct (serve srv path) as [|j x| | |] eqn:S; try reflexivity.
    destruct (extra_sees_only_own _ _ _ _ _ H S) as [E [pat [N C]]]. subst x.
    rewrite str_eqb_refl. cbn [andb]. apply existsb_exists. exists (j, pat). split.
    + apply opt_extras_nth. exact N.
    + cbn [fst snd]. rewrite Nat.eqb_refl. exact C.
Qed.

Lemma split_nonempty : forall q cur, split_slash cur q <> [].
Proof. induction q as [|c q IH]; intros cur; cbn [split_slash]; [discriminate|]. destruct (is_slash c); [discriminate | apply IH]. Qed.

Lemma segs_clean_cons : forall s l, l <> [] ->
  segs_clean (s :: l) = negb (is_dot s) && negb match s with [] => true | _ => false end && segs_clean l.
Proof. intros s [|s' l] H; [contradiction | reflexivity]. Qed.

(* q ++ "/" splits into the segments of q and an empty last one, so the last segment of q, which a
   trailing slash would leave empty, is now an inner one and has to be non-empty *)
Lemma clean_snoc : forall q cur,
  segs_clean (split_slash cur (q ++ [slash])) = true ->
  segs_clean (split_slash cur q) = true /\ ends_slash q = false /\ (q = [] -> cur <> []).
Proof.
  induction q as [|c q IH]; intros cur H.
  - cbn in H. apply andb_true_iff in H. destruct H as [H _]. apply andb_true_iff in H. destruct H as [H1 H2].
    split; [exact H1|]. split; [reflexivity|]. intros _ ->. discriminate.
  - cbn [app split_slash] in *. destruct (is_slash c) eqn:SC.
    + rewrite segs_clean_cons in H by apply split_nonempty. apply andb_true_iff in H. destruct H as [H1 H2].
      destruct (IH [] H2) as (A & B & N).
      rewrite segs_clean_cons by apply split_nonempty. rewrite H1, A. split; [reflexivity|]. split; [|discriminate].
      rewrite ends_slash_cons; [exact B|]. intros ->. apply N; reflexivity.
    + destruct (IH (c :: cur) H) as (A & B & _). split; [exact A|]. split; [|discriminate].
      destruct q; [exact SC | rewrite ends_slash_cons by discriminate; exact B].
Qed.

Lemma clean_prefix : forall p, p <> [] -> is_clean (p ++ [slash]) = true -> is_clean p = true /\ ends_slash p = false.
Proof.
  intros [|c q] NE H; [contradiction|]. cbn [app] in H. unfold is_clean in *.
  apply andb_true_iff in H. destruct H as [H1 H2]. rewrite H1. cbn [andb].
  destruct (clean_snoc _ _ H2) as (A & B & N). split; [exact A|].
  destruct q as [|d q]; [exfalso; apply N; reflexivity|]. rewrite ends_slash_cons by discriminate. exact B.
Qed.

(* the prefix of an accepted mount is itself a clean path without trailing slash *)
Lemma mount_prefix_clean : forall opts srv m,
  new_server false opts = NSOk srv -> In m (s_mounts srv) -> mount_prefix m <> [] ->
  is_clean (mount_prefix m) = true /\ ends_slash (mount_prefix m) = false.
Proof.
  intros opts srv m H I NE. pose proof (mount_in_table _ _ _ H I) as IT.
  pose proof (new_server_ok _ _ _ H) as [_ [_ [_ [_ PL]]]]. rewrite Forall_forall in PL.
  specialize (PL _ IT). cbn [mount_entry e_pat] in PL. apply plain_clean in PL. apply clean_prefix; assumption.
Qed.

Lemma claims_prefix : forall q path, claims q path = true -> has_prefix q path = true.
Proof.
  intros q path H. unfold claims in H. destruct (ends_slash q); [exact H|].
  apply str_eqb_eq in H. subst. rewrite <- (app_nil_r path) at 2. apply has_prefix_app.
Qed.

Lemma prefixes_nest : forall a b s,
  has_prefix a s = true -> has_prefix b s = true -> length a <= length b -> has_prefix a b = true.
Proof.
  intros a b s Ha Hb L. apply has_prefix_firstn in Ha. apply has_prefix_firstn in Hb.
  apply has_prefix_iff. exists (skipn (length a) b).
  rewrite <- (firstn_skipn (length a) b) at 1. f_equal.
  rewrite Hb at 1. rewrite firstn_firstn. rewrite Nat.min_l by exact L. symmetry. exact Ha.
Qed.

(* a mount with nothing registered inside its subtree is transparent for every path *)
Lemma transparent_unnested : forall opts srv m x,
  new_server false opts = NSOk srv -> In m (s_mounts srv) ->
  let p := mount_prefix m in
  (forall q, In q (patterns srv) -> has_prefix (p ++ [slash]) q = true -> q = p ++ [slash]) ->
  is_clean (p ++ slash :: x) = true ->
  serve srv (p ++ slash :: x) = ToMux (slash :: x).
Proof.
  intros opts srv m x H I p U CL.
  assert (PP : has_prefix (p ++ [slash]) (p ++ slash :: x) = true).
  { replace (p ++ slash :: x) with ((p ++ [slash]) ++ x) by (rewrite <- app_assoc; reflexivity). apply has_prefix_app. }
  apply (transparent opts srv m x H I CL).
  - intros q Iq Cq. destruct (Nat.le_gt_cases (length q) (length (p ++ [slash]))) as [L|L]; [exact L|].
    exfalso. assert (E : q = p ++ [slash]).
    { apply U; [exact Iq|]. apply (prefixes_nest _ _ (p ++ slash :: x)); [exact PP | apply claims_prefix; exact Cq | lia]. }
    subst q. lia.
  - intros _ Iq. assert (E : (p ++ slash :: x) ++ [slash] = p ++ [slash]).
    { apply U; [exact Iq|]. replace ((p ++ slash :: x) ++ [slash]) with ((p ++ [slash]) ++ (x ++ [slash])).
      - apply has_prefix_app.
      - rewrite <- !app_assoc. reflexivity. }
    apply (f_equal (@length N)) in E. rewrite !app_length in E. cbn [length] in E. lia.
Qed.
