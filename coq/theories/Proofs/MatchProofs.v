(* Soundness, totality and completeness of variable.index / path.search (Model/Match.v) against the
   declarative covering relation of Spec/Route.v. *)
From Larking Require Import Base.GoSem Model.Lexer Model.Trie Model.Match Spec.Route.

Lemma break_at_spec p l a b :
  break_at p l = (a, b) ->
  l = a ++ b /\ Forall (fun t => p t = false) a /\ match b with [] => True | t :: _ => p t = true end.
Proof.
  revert a b. induction l as [|t l IH]; intros a b H; cbn in H.
  - inversion H; subst. repeat split; auto.
  - destruct (p t) eqn:Ept.
    + inversion H; subst. repeat split; auto.
    + destruct (break_at p l) as [a' b'] eqn:Eb. inversion H; subst.
      destruct (IH a' b eq_refl) as (E1 & E2 & E3). subst l. repeat split; auto.
Qed.

Lemma break_at_app p a r :
  Forall (fun t => p t = false) a -> match r with [] => True | t :: _ => p t = true end ->
  break_at p (a ++ r) = (a, r).
Proof.
  intros Ha Hr. induction Ha as [|t a Ht Ha IH]; cbn.
  - destruct r as [|t r]; cbn; auto. now rewrite Hr.
  - rewrite Ht, IH. reflexivity.
Qed.

Lemma nosep_iff t : nosep t <-> (is TSlash t || is TVerb t) = false.
Proof. unfold nosep. rewrite orb_false_iff. tauto. Qed.

Lemma var_index_sound pat : forall rest c z,
  var_index pat rest = Ok (Some (c, z)) -> rest = c ++ z /\ MatchPat pat c z.
Proof.
  induction pat as [|p pat IH]; intros rest c z H; cbn in H.
  - inversion H; subst. split; [reflexivity|constructor].
  - destruct rest as [|t rest']; [discriminate|].
    destruct (ttyp p) eqn:Ep; try discriminate.
    + destruct (is TSlash t) eqn:Et; [|discriminate].
      destruct (var_index pat rest') as [[[c' z']|]| | |] eqn:Er; try discriminate.
      inversion H; subst. destruct (IH _ _ _ Er) as [E M]. subst rest'.
      split; [reflexivity|]. now apply MP_slash.
    + destruct (break_at (fun x => is TSlash x || is TVerb x) (t :: rest')) as [a b] eqn:Eb.
      destruct (var_index pat b) as [[[c' z']|]| | |] eqn:Er; try discriminate.
      inversion H; subst. destruct (IH _ _ _ Er) as [E M]. subst b.
      destruct (break_at_spec _ _ _ _ Eb) as (E1 & E2 & E3).
      split; [now rewrite E1, app_assoc|].
      apply MP_star; auto.
      * eapply Forall_impl; [|exact E2]. intros x Hx. apply (proj2 (nosep_iff x)). exact Hx.
      * unfold at_sep. revert E3. destruct (c' ++ z) as [|x l]; auto. intros E3. now apply orb_true_iff.
      * rewrite <- E1. discriminate.
    + destruct (break_at (is TVerb) (t :: rest')) as [a b] eqn:Eb.
      destruct (var_index pat b) as [[[c' z']|]| | |] eqn:Er; try discriminate.
      inversion H; subst. destruct (IH _ _ _ Er) as [E M]. subst b.
      destruct (break_at_spec _ _ _ _ Eb) as (E1 & E2 & E3).
      split; [now rewrite E1, app_assoc|].
      apply MP_starstar; auto.
      all: try (rewrite <- E1; discriminate).
      all: unfold at_verb; revert E3; destruct (c' ++ z); auto.
    + destruct (is TPath t && str_eqb (tval p) (tval t)) eqn:Et; [|discriminate].
      apply andb_true_iff in Et. destruct Et as [Et1 Et2].
      destruct (var_index pat rest') as [[[c' z']|]| | |] eqn:Er; try discriminate.
      inversion H; subst. destruct (IH _ _ _ Er) as [E M]. subst rest'.
      split; [reflexivity|]. apply MP_lit; auto. now apply (list_eqb_eq N.eqb N.eqb_eq).
Qed.

Lemma var_index_complete pat c z :
  MatchPat pat c z -> var_index pat (c ++ z) = Ok (Some (c, z)).
Proof.
  induction 1 as [z|p t pat c z Hp Ht M IH|p t pat c z Hp Ht Hv M IH|p a pat c z Hp Ha Hs Hne M IH|p a pat c z Hp Ha Hs Hne M IH].
  - reflexivity.
  - cbn. rewrite Hp, Ht, IH. reflexivity.
  - cbn. rewrite Hp, Ht, Hv. replace (str_eqb (tval t) (tval t)) with true; [now rewrite IH|].
    symmetry. now apply (list_eqb_eq N.eqb N.eqb_eq).
  - rewrite <- app_assoc. cbn [var_index].
    destruct (a ++ c ++ z) as [|t r] eqn:E; [contradiction|]. rewrite Hp, <- E.
    rewrite break_at_app.
    + now rewrite IH.
    + eapply Forall_impl; [|exact Ha]. intros x Hx. apply (proj1 (nosep_iff x)). exact Hx.
    + unfold at_sep in Hs. destruct (c ++ z); auto. now apply orb_true_iff.
  - rewrite <- app_assoc. cbn [var_index].
    destruct (a ++ c ++ z) as [|t r] eqn:E; [contradiction|]. rewrite Hp, <- E.
    rewrite break_at_app; auto. now rewrite IH.
Qed.

Lemma var_index_total pat : forallb pat_tok_ok pat = true ->
  forall rest, exists r, var_index pat rest = Ok r.
Proof.
  induction pat as [|p pat IH]; intros Hok rest; cbn.
  - eauto.
  - cbn in Hok. apply andb_true_iff in Hok. destruct Hok as [Hp Hok]. specialize (IH Hok).
    destruct rest as [|t rest']; [eauto|].
    unfold pat_tok_ok in Hp. destruct (ttyp p); try discriminate.
    + destruct (is TSlash t); [|eauto]. destruct (IH rest') as [r ->]. destruct r as [[? ?]|]; eauto.
    + destruct (break_at _ (t :: rest')) as [a b]. destruct (IH b) as [r ->]. destruct r as [[? ?]|]; eauto.
    + destruct (break_at _ (t :: rest')) as [a b]. destruct (IH b) as [r ->]. destruct r as [[? ?]|]; eauto.
    + destruct (is TPath t && _); [|eauto]. destruct (IH rest') as [r ->]. destruct r as [[? ?]|]; eauto.
Qed.

(* variable.index has no error return *)
Lemma var_index_not_err pat : forall rest e, var_index pat rest <> Err e.
Proof.
  induction pat as [|p pat IH]; intros rest e; cbn; [discriminate|].
  destruct rest as [|t rest']; [discriminate|].
  destruct (ttyp p); try discriminate.
  - destruct (is TSlash t); [|discriminate]. specialize (IH rest' e). destruct (var_index pat rest') as [[[? ?]|]| | |]; congruence.
  - destruct (break_at _ _) as [a b]. specialize (IH b e). destruct (var_index pat b) as [[[? ?]|]| | |]; congruence.
  - destruct (break_at _ _) as [a b]. specialize (IH b e). destruct (var_index pat b) as [[[? ?]|]| | |]; congruence.
  - destruct (_ && _); [|discriminate]. specialize (IH rest' e). destruct (var_index pat rest') as [[[? ?]|]| | |]; congruence.
Qed.

Lemma var_index_length pat rest c z : var_index pat rest = Ok (Some (c, z)) -> (length z <= length rest)%nat.
Proof. intros H. apply var_index_sound in H. destruct H as [-> _]. rewrite app_length. lia. Qed.

Lemma short_or_long {A} (l : list A) : length l <= 1 \/ exists a b r, l = a :: b :: r.
Proof. destruct l as [|a [|b r]]; cbn; eauto. Qed.

Lemma MatchEdges_caps es toks caps : MatchEdges es toks caps -> length caps = nvars es.
Proof. induction 1; cbn [nvars length]; auto. rewrite app_length. cbn [length]. lia. Qed.

Lemma TrieInv_lit nd k key c : TrieInv nd k -> assoc key (n_segs nd) = Some c -> TrieInv c k.
Proof.
  intros [I1 I2] Ha. split.
  - intros es nd' verb m HR HB. now apply (I1 (ELit key :: es) nd' verb m (R_lit _ _ _ _ _ Ha HR)).
  - intros es nd' pat c' HR Hin. now apply (I2 (ELit key :: es) nd' pat c' (R_lit _ _ _ _ _ Ha HR)).
Qed.
Lemma TrieInv_var nd k pat c : TrieInv nd k -> In (pat, c) (n_vars nd) -> TrieInv c (S k).
Proof.
  intros [I1 I2] Ha. split.
  - intros es nd' verb m HR HB. rewrite (I1 (EVar pat :: es) nd' verb m (R_var _ _ _ _ _ Ha HR) HB). cbn. lia.
  - intros es nd' pat' c' HR Hin. now apply (I2 (EVar pat :: es) nd' pat' c' (R_var _ _ _ _ _ Ha HR)).
Qed.

Section Search.
Variable okconv : list str -> str -> bool.

Definition benign {A} (x : outcome A) : Prop := match x with Ok _ | Err _ => True | _ => False end.

Lemma pick_eq verb nd :
  pick verb nd = match bound_at verb nd with Some m => Ok (m, []) | None => Err EMethod end.
Proof. unfold pick, bound_at. destruct (assoc verb (n_meths nd)); [reflexivity|]. now destruct (n_mall nd). Qed.
Lemma pick_bound verb nd m ps : pick verb nd = Ok (m, ps) -> bound_at verb nd = Some m /\ ps = [].
Proof. rewrite pick_eq. destruct (bound_at verb nd); intros H; inversion H; auto. Qed.
Lemma bound_pick verb nd m : bound_at verb nd = Some m -> pick verb nd = Ok (m, []).
Proof. intros H. now rewrite pick_eq, H. Qed.

Lemma search_short f verb nd toks : length toks <= 1 -> search okconv (S f) verb nd toks = pick verb nd.
Proof. destruct toks as [|t0 [|t1 rest]]; cbn [length]; [reflexivity|reflexivity|lia]. Qed.

(* the loop over p.variables goes past a variable that does not match here, or below which the
   search finds nothing *)
Definition Passed (rec : node -> list token -> outcome result) (tl : list token) (pn : list token * node) : Prop :=
  forall c z, var_index (fst pn) tl = Ok (Some (c, z)) -> exists e, rec (snd pn) z = Err e.

(* ... and ends at the first other one: fds = m.vars[len(m.vars)-len(ps)-1] is the field path its
   capture is bound to *)
Definition capture (m : minfo) (ps : list str) (c : list token) (fds : list str) : outcome result :=
  if is_nil fds || okconv fds (spell c) then Ok (m, ps ++ [spell c]) else Err EOther.

Lemma capture_ok m ps c fds r :
  capture m ps c fds = Ok r -> r = (m, ps ++ [spell c]) /\ (is_nil fds || okconv fds (spell c)) = true.
Proof. unfold capture. destruct (_ || _); [|discriminate]. intros H. now inversion H. Qed.

(* the loop went past the variables pre and ended, with outcome r, at the next one *)
Definition Hit (rec : node -> list token -> outcome result) (tl : list token) (vs : list (list token * node))
           (r : outcome result) : Prop :=
  exists pre pat nxt post c z m ps fds,
    vs = pre ++ (pat, nxt) :: post /\ Forall (Passed rec tl) pre /\
    var_index pat tl = Ok (Some (c, z)) /\ rec nxt z = Ok (m, ps) /\
    length ps < length (m_vars m) /\ nth_error (m_vars m) (length (m_vars m) - length ps - 1) = Some fds /\
    r = capture m ps c fds.

Lemma Hit_cons rec tl pn vs r : Passed rec tl pn -> Hit rec tl vs r -> Hit rec tl (pn :: vs) r.
Proof.
  intros P (pre & pat & nxt & post & c & z & m & ps & fds & -> & F & R).
  exists (pn :: pre), pat, nxt, post, c, z, m, ps, fds. auto.
Qed.

(* No invariant is needed once the outcome is known to be an answer or an error: the loop has then
   done its own bounds check. *)
Lemma try_vars_first rec tl vs r :
  try_vars okconv rec tl vs = r -> benign r ->
  (r = Err ENotFound /\ Forall (Passed rec tl) vs) \/ Hit rec tl vs r.
Proof.
  intros <-. induction vs as [|[pat nxt] vs IH]; cbn [try_vars]; intros Hb; [left; auto|].
  assert (K : Passed rec tl (pat, nxt) -> benign (try_vars okconv rec tl vs) ->
    (try_vars okconv rec tl vs = Err ENotFound /\ Forall (Passed rec tl) ((pat, nxt) :: vs)) \/
    Hit rec tl ((pat, nxt) :: vs) (try_vars okconv rec tl vs)).
  { intros P Hb'. destruct (IH Hb') as [[E F]|H]; [left; auto|right; now apply Hit_cons]. }
  destruct (var_index pat tl) as [[[c z]|]|e| |] eqn:Ev; try contradiction.
  - destruct (rec nxt z) as [[m ps]|e| |] eqn:Er; try contradiction.
    + right. destruct (Nat.ltb (length ps) (length (m_vars m))) eqn:El; [|contradiction]. apply Nat.ltb_lt in El.
      destruct (nth_error (m_vars m) _) as [fds|] eqn:En; [|contradiction].
      exists [], pat, nxt, vs, c, z, m, ps, fds. repeat split; auto. unfold capture. now destruct (is_nil fds).
    + apply K; [|exact Hb]. intros c' z' E. cbn [fst snd] in *. rewrite Ev in E. injection E as <- <-. eauto.
  - apply K; [|exact Hb]. intros c' z' E. cbn [fst] in E. rewrite Ev in E. discriminate.
  - now apply var_index_not_err in Ev.
Qed.

(* with two tokens or more: the literal edge that spells the first two, if it leads to an answer;
   else the variables *)
Lemma search_long f verb nd t0 t1 rest r :
  search okconv (S f) verb nd (t0 :: t1 :: rest) = r -> benign r ->
  (exists nxt res, assoc (tval t0 ++ tval t1) (n_segs nd) = Some nxt /\
     search okconv f verb nxt rest = Ok res /\ r = Ok res) \/
  (forall nxt, assoc (tval t0 ++ tval t1) (n_segs nd) = Some nxt -> exists e, search okconv f verb nxt rest = Err e) /\
  ((r = Err ENotFound /\
    (is TSlash t0 = true -> Forall (Passed (search okconv f verb) (t1 :: rest)) (n_vars nd))) \/
   (is TSlash t0 = true /\ Hit (search okconv f verb) (t1 :: rest) (n_vars nd) r)).
Proof.
  cbn [search]. unfold search_body. intros <- Hb.
  set (vars := if is TSlash t0 then _ else _) in *.
  assert (V : benign vars ->
    (vars = Err ENotFound /\
     (is TSlash t0 = true -> Forall (Passed (search okconv f verb) (t1 :: rest)) (n_vars nd))) \/
    (is TSlash t0 = true /\ Hit (search okconv f verb) (t1 :: rest) (n_vars nd) vars)).
  { subst vars. destruct (is TSlash t0); [|left; split; [reflexivity|discriminate]].
    intros Hv. destruct (try_vars_first _ _ _ _ eq_refl Hv) as [[E F]|R]; [left|right]; auto. }
  destruct (assoc (tval t0 ++ tval t1) (n_segs nd)) as [nxt|]; [|right; split; [discriminate|auto]].
  destruct (search okconv f verb nxt rest) as [res|e| |] eqn:Er; try contradiction.
  - left. eauto.
  - right. split; [|auto]. intros nxt' E. injection E as <-. eauto.
Qed.

Definition Sound (verb : str) (nd : node) (toks : list token) (r : result) : Prop :=
  exists es nd', Reach nd es nd' /\ bound_at verb nd' = Some (fst r) /\ MatchEdges es toks (snd r).

Lemma Sound_lit verb nd t0 t1 rest nxt r :
  assoc (tval t0 ++ tval t1) (n_segs nd) = Some nxt -> Sound verb nxt rest r -> Sound verb nd (t0 :: t1 :: rest) r.
Proof.
  intros Ha (es & nd' & HR & HB & HM). exists (ELit (tval t0 ++ tval t1) :: es), nd'.
  split; [eapply R_lit; eauto|]. split; [exact HB|now apply ME_lit].
Qed.

Lemma Sound_var verb nd t0 tl pat nxt c z m ps :
  is TSlash t0 = true -> tl <> [] -> In (pat, nxt) (n_vars nd) -> var_index pat tl = Ok (Some (c, z)) ->
  Sound verb nxt z (m, ps) -> Sound verb nd (t0 :: tl) (m, ps ++ [spell c]).
Proof.
  intros Ht Hne Hin Hv (es & nd' & HR & HB & HM). apply var_index_sound in Hv. destruct Hv as [-> HP].
  exists (EVar pat :: es), nd'. split; [eapply R_var; eauto|]. split; [exact HB|now apply ME_var].
Qed.

Theorem search_sound fuel verb : forall nd toks r,
  search okconv fuel verb nd toks = Ok r -> Sound verb nd toks r.
Proof.
  induction fuel as [|f IH]; intros nd toks r H; [discriminate|].
  destruct (short_or_long toks) as [Hl|(t0 & t1 & rest & ->)].
  - rewrite (search_short _ _ _ _ Hl) in H. destruct r as [m ps]. apply pick_bound in H. destruct H as [HB ->].
    exists [], nd. split; [constructor|]. split; [exact HB|now constructor].
  - destruct (search_long _ _ _ _ _ _ _ H I)
      as [(nxt & res & Ha & Hr & E)|[_ [[E _]|(Ht & pre & pat & nxt & post & c & z & m & ps & fds & Evs & _ & Ev & Er & _ & _ & E)]]].
    + injection E as ->. eapply Sound_lit; eauto.
    + discriminate.
    + symmetry in E. apply capture_ok in E. destruct E as [-> _].
      eapply Sound_var; eauto; [discriminate|]. rewrite Evs. apply in_elt.
Qed.

(* a successful search below a node that k variables lead to returns as many captures as the binding
   has further variables (stated for an oracle, as search_sound is: callers pass theirs) *)
Lemma sound_caps_length verb nd k toks m ps :
  TrieInv nd k -> Sound verb nd toks (m, ps) -> (k + length ps = length (m_vars m))%nat.
Proof using okconv.
  intros [I1 _] (es & nd' & HR & HB & HM). cbn [fst snd] in *.
  rewrite (I1 es nd' verb m HR HB), (MatchEdges_caps _ _ _ HM). reflexivity.
Qed.

(* the loop is total when, for each variable, the pattern is one, the search below is benign and
   answers with fewer captures than its binding has variables *)
Lemma try_vars_total rec tl vs :
  Forall (fun pn => forallb pat_tok_ok (fst pn) = true /\
            forall z, length z <= length tl -> benign (rec (snd pn) z) /\
              forall m ps, rec (snd pn) z = Ok (m, ps) -> length ps < length (m_vars m)) vs ->
  benign (try_vars okconv rec tl vs).
Proof.
  induction 1 as [|[pat nxt] vs [Hok Hrec] _ IH]; cbn [try_vars fst snd] in *; [exact I|].
  destruct (var_index_total pat Hok tl) as [[[c z]|] Ev]; rewrite Ev; [|exact IH].
  destruct (Hrec z (var_index_length _ _ _ _ Ev)) as [Hb Hl].
  destruct (rec nxt z) as [[m ps]|e| |]; try contradiction; [|exact IH].
  specialize (Hl m ps eq_refl). rewrite (proj2 (Nat.ltb_lt _ _) Hl).
  destruct (nth_error (m_vars m) (length (m_vars m) - length ps - 1)) as [fds|] eqn:En.
  - destruct (is_nil fds); [exact I|]. destruct (okconv fds (spell c)); exact I.
  - apply nth_error_None in En. lia.
Qed.

Theorem search_total fuel verb : forall nd k toks,
  TrieInv nd k -> (length toks < fuel)%nat -> benign (search okconv fuel verb nd toks).
Proof.
  induction fuel as [|f IH]; intros nd k toks Inv Hf; [lia|].
  destruct (short_or_long toks) as [Hl|(t0 & t1 & rest & ->)].
  - rewrite (search_short _ _ _ _ Hl), pick_eq. destruct (bound_at verb nd); exact I.
  - cbn [search length] in *. unfold search_body.
    assert (Hvars : benign (if is TSlash t0 then try_vars okconv (search okconv f verb) (t1 :: rest) (n_vars nd) else Err ENotFound)).
    { destruct (is TSlash t0); [|exact I]. apply try_vars_total, Forall_forall. intros [pat cn] Hin.
      split; [exact (proj2 Inv [] nd pat cn (R_here nd) Hin)|]. intros z Hz.
      pose proof (TrieInv_var _ _ _ _ Inv Hin) as Inv'. cbn [fst snd length] in *. split.
      - apply (IH cn (S k) z Inv'). lia.
      - intros m ps Hr. pose proof (sound_caps_length verb cn (S k) z m ps Inv' (search_sound _ _ _ _ _ Hr)). lia. }
    destruct (assoc (tval t0 ++ tval t1) (n_segs nd)) as [nxt|] eqn:Ea; [|exact Hvars].
    pose proof (IH nxt k rest (TrieInv_lit _ _ _ _ Inv Ea) ltac:(lia)) as Hl.
    destruct (search okconv f verb nxt rest); try contradiction; [exact I|exact Hvars].
Qed.

(* some capture is refused by the conversion oracle for the field path it is bound to *)
Definition Refused (m : minfo) (caps : list str) : Prop :=
  exists ps c qs fds, caps = (ps ++ [c]) ++ qs /\ length ps < length (m_vars m) /\
    nth_error (m_vars m) (length (m_vars m) - length ps - 1) = Some fds /\ (is_nil fds || okconv fds c) = false.

Lemma Refused_snoc m caps x : Refused m caps -> Refused m (caps ++ [x]).
Proof.
  intros (ps & c & qs & fds & -> & R). exists ps, c, (qs ++ [x]), fds. split; [symmetry; apply app_assoc|exact R].
Qed.

(* the loop ends in an error at a variable: a covering path whose capture there is refused *)
Lemma capture_err f verb nd t0 t1 rest pre pat nxt post c z m ps fds e :
  is TSlash t0 = true -> n_vars nd = pre ++ (pat, nxt) :: post -> var_index pat (t1 :: rest) = Ok (Some (c, z)) ->
  search okconv f verb nxt z = Ok (m, ps) ->
  length ps < length (m_vars m) -> nth_error (m_vars m) (length (m_vars m) - length ps - 1) = Some fds ->
  Err e = capture m ps c fds ->
  exists m' caps, Sound verb nd (t0 :: t1 :: rest) (m', caps) /\ Refused m' caps.
Proof.
  intros Ht Evs Ev Er Hl Hn H. unfold capture in H.
  destruct (is_nil fds || okconv fds (spell c)) eqn:Ec; [discriminate|].
  exists m, (ps ++ [spell c]). split.
  - eapply Sound_var; eauto; [discriminate|rewrite Evs; apply in_elt|eapply search_sound; eauto].
  - exists ps, (spell c), [], fds. rewrite app_nil_r. auto.
Qed.

(* an error although some path to a binding for the verb covers the tokens: a covering path (maybe
   another one) has a capture that is refused *)
Lemma search_err_refused verb es : forall toks caps, MatchEdges es toks caps ->
  forall fuel nd nd' m e, Reach nd es nd' -> bound_at verb nd' = Some m ->
  search okconv fuel verb nd toks = Err e ->
  exists m' caps', Sound verb nd toks (m', caps') /\ Refused m' caps'.
Proof.
  induction 1 as [toks Hl|t0 t1 rest es caps HM IH|pat t0 c z es caps Ht Hne HP HM IH];
    intros fuel nd nd' m e HR HB H; (destruct fuel as [|f]; [discriminate|]).
  - inversion HR; subst. rewrite (search_short _ _ _ _ Hl), (bound_pick _ _ _ HB) in H. discriminate.
  - inversion HR as [|? key cn ? ? Ha HR'|]; subst.
    destruct (search_long _ _ _ _ _ _ _ H I) as [(nxt & res & _ & _ & E)|[Hdead _]]; [discriminate|].
    destruct (Hdead _ Ha) as [e1 Er]. destruct (IH _ _ _ _ _ HR' HB Er) as (m' & caps' & HS & Rf).
    exists m', caps'. split; [eapply Sound_lit; eauto|exact Rf].
  - inversion HR as [| |? ? cn ? ? Hin HR']; subst.
    pose proof (var_index_complete _ _ _ HP) as Hvi.
    destruct (c ++ z) as [|t1 rest] eqn:Ecz; [contradiction|].
    destruct (search_long _ _ _ _ _ _ _ H I)
      as [(nxt & res & _ & _ & E)|[_ [[_ Hp]|(_ & pre & pat0 & nxt0 & post & c0 & z0 & m0 & ps0 & fds & Evs & _ & Ev & Er & Hl & Hn & E)]]];
      [discriminate| |].
    + (* every variable was passed over, the one of the covering path too *)
      destruct (proj1 (Forall_forall _ _) (Hp Ht) _ Hin _ _ Hvi) as [e1 Er].
      destruct (IH _ _ _ _ _ HR' HB Er) as (m' & caps' & HS & Rf).
      exists m', (caps' ++ [spell c]). split; [eapply Sound_var; eauto; discriminate|now apply Refused_snoc].
    + eapply capture_err; eauto.
Qed.

(* the class of an error that no refused capture explains: "method not allowed" at the end of the
   path, "not found" before it *)
Lemma search_err_kind fuel verb nd toks e : search okconv fuel verb nd toks = Err e ->
  e = (if Nat.leb (length toks) 1 then EMethod else ENotFound) \/
  exists m caps, Sound verb nd toks (m, caps) /\ Refused m caps.
Proof.
  intros H. destruct fuel as [|f]; [discriminate|].
  destruct (short_or_long toks) as [Hl|(t0 & t1 & rest & ->)].
  - left. rewrite (search_short _ _ _ _ Hl), pick_eq in H. rewrite (proj2 (Nat.leb_le _ _) Hl).
    destruct (bound_at verb nd); [discriminate|congruence].
  - destruct (search_long _ _ _ _ _ _ _ H I)
      as [(nxt & res & _ & _ & E)|[_ [[E _]|(Ht & pre & pat & nxt & post & c & z & m & ps & fds & Evs & _ & Ev & Er & Hl & Hn & E)]]].
    + discriminate.
    + left. cbn [length Nat.leb]. congruence.
    + right. eapply capture_err; eauto.
Qed.

Hypothesis conv_all : forall fp t, okconv fp t = true.

Theorem search_complete verb es : forall toks caps, MatchEdges es toks caps ->
  forall fuel nd k nd' m, TrieInv nd k -> (length toks < fuel)%nat ->
  Reach nd es nd' -> bound_at verb nd' = Some m ->
  exists r, search okconv fuel verb nd toks = Ok r.
Proof.
  intros toks caps HM fuel nd k nd' m Inv Hf HR HB.
  pose proof (search_total fuel verb nd k toks Inv Hf) as Hb.
  destruct (search okconv fuel verb nd toks) as [r|e| |] eqn:Es; try contradiction; [eauto|].
  destruct (search_err_refused verb es toks caps HM _ _ _ _ _ HR HB Es) as (_ & _ & _ & _ & c & _ & fds & _ & _ & _ & Hc).
  rewrite conv_all, orb_true_r in Hc. discriminate.
Qed.

(* literal-over-wildcard: when the next separator and text are spelled by a literal edge below which
   the rest of the path is served, that is the answer, whatever variables the node also has *)
Theorem search_literal_first fuel verb nd t0 t1 rest nxt r :
  assoc (tval t0 ++ tval t1) (n_segs nd) = Some nxt ->
  search okconv fuel verb nxt rest = Ok r ->
  search okconv (S fuel) verb nd (t0 :: t1 :: rest) = Ok r.
Proof. intros Ha Hr. cbn [search]. unfold search_body. now rewrite Ha, Hr. Qed.
End Search.
