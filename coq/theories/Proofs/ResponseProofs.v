(* Proofs about Model/Response.v: what a 200 response of a unary call carries. Marshalling and
   compression are opaque inverse pairs (Section variables with the inverse law as hypothesis).
   Then: a reply over the send limit is refused, nothing on the unary path panics once the internal
   codec is reachable by message name only, and the default configuration never compresses. *)
From Larking Require Import Base.GoSem Model.Negotiate Model.Response Spec.ResponseSpec Proofs.NegotiateProofs.
Local Close Scope Q_scope.
Local Open Scope nat_scope.
Local Open Scope bool_scope.

Lemma insert_sorted_in k l x : In x (insert_sorted k l) <-> x = k \/ In x l.
Proof.
  induction l as [|y l IH]; cbn [insert_sorted In].
  - split; intros [H|H]; auto.
  - destruct (bytes_leb k y); cbn [In]; [split; intros [H|H]; auto|].
    rewrite IH. split; intros H; tauto.
Qed.
Lemma sort_strings_in l x : In x (sort_strings l) <-> In x l.
Proof.
  induction l as [|y l IH]; cbn [sort_strings fold_right In]; [tauto|].
  fold (sort_strings l). rewrite insert_sorted_in, IH. split; intros [H|H]; auto.
Qed.

Lemma lookup_in {A} k (m : list (bytes * A)) : In k (map fst m) -> exists v, lookup k m = Some v.
Proof.
  induction m as [|[k' v] m IH]; cbn [map fst In lookup]; [tauto|].
  intros [H|H].
  - subst. rewrite bytes_eqb_refl. eauto.
  - destruct (bytes_eqb k' k); eauto.
Qed.
Lemma lookup_some_in {A} k (m : list (bytes * A)) v : lookup k m = Some v -> In (k, v) m.
Proof.
  induction m as [|[k' v'] m IH]; cbn [lookup]; [discriminate|].
  destruct (bytes_eqb k' k) eqn:E.
  - intros H; inversion H; subst. apply bytes_eqb_eq in E. subst. left; reflexivity.
  - intros H. right. auto.
Qed.

Lemma offers_in cfg t : In t (content_type_offers cfg) <-> In t (map fst (codecs cfg)) /\ t <> http_body_name.
Proof.
  unfold content_type_offers. rewrite sort_strings_in, filter_In, negb_true_iff, bytes_eqb_neq. reflexivity.
Qed.

Section ResponseProofs.
  Variables msg field : Type.
  Variable get_msg : field -> msg -> option msg.
  Variable full_name : msg -> bytes.
  Variable body_ct body_data : msg -> bytes.
  Variable marshal : codec -> msg -> outcome bytes.
  Variable marshal_status : codec -> N -> outcome bytes.
  Variable compress : bytes -> bytes -> bytes.

  Notation walk := (walk msg field get_msg).
  Notation get_codec := (get_codec msg full_name).
  Notation send_msg := (send_msg msg field get_msg full_name body_ct body_data marshal).
  Notation serve_unary := (serve_unary msg field get_msg full_name body_ct body_data marshal marshal_status compress).
  Notation select := (select msg field get_msg).
  Notation payload := (payload msg full_name body_ct body_data marshal).
  Notation sane := (sane msg marshal marshal_status).

  Lemma walk_select path : forall m cur, walk path m = Ok cur <-> select path m = Some cur.
  Proof.
    induction path as [|fd path IH]; intros m cur; cbn [Response.walk ResponseSpec.select].
    - split; intros H; inversion H; reflexivity.
    - destruct (get_msg fd m); [apply IH|]. split; discriminate.
  Qed.
  Lemma walk_no_err path : forall m e, walk path m <> Err e.
  Proof.
    induction path as [|fd path IH]; intros m e; cbn [Response.walk]; [discriminate|].
    destruct (get_msg fd m); [apply IH|discriminate].
  Qed.

  Lemma send_msg_ok cfg path accept reply s :
    send_msg cfg path accept reply = Ok s ->
    exists cur c, select path reply = Some cur /\ get_codec cfg accept cur = Ok c /\
      payload c accept cur = Ok (s_body s, s_ct s) /\ (N.of_nat (length (s_body s)) <= max_send cfg)%N.
  Proof.
    unfold Response.send_msg. intros H.
    destruct (walk path reply) as [cur| | |] eqn:Hw; try discriminate. cbn [bind] in H.
    destruct (get_codec cfg accept cur) as [c| | |] eqn:Hc; try discriminate. cbn [bind] in H.
    fold (payload c accept cur) in H.
    destruct (payload c accept cur) as [[b ct]| | |] eqn:Hp; try discriminate. cbn [bind] in H.
    destruct (max_send cfg <? N.of_nat (length b))%N eqn:Hl; try discriminate.
    inversion H; subst; cbn [s_body s_ct].
    exists cur, c. split; [apply walk_select; auto|]. split; auto. split; auto.
    apply N.ltb_ge in Hl. exact Hl.
  Qed.

  (* the send limit: refused exactly when the bytes exceed it *)
  Lemma send_msg_limit cfg path accept reply cur c b ct :
    select path reply = Some cur -> get_codec cfg accept cur = Ok c -> payload c accept cur = Ok (b, ct) ->
    send_msg cfg path accept reply =
      if (max_send cfg <? N.of_nat (length b))%N then Err ETooLarge else Ok (mksent ct b).
  Proof.
    intros Hs Hc Hp. apply walk_select in Hs. unfold Response.send_msg.
    rewrite Hs. cbn [bind]. rewrite Hc. cbn [bind]. fold (payload c accept cur). rewrite Hp. cbn [bind]. reflexivity.
  Qed.

  (* encError: the error body is negotiated again with application/json as default *)
  Definition enc_error (cfg : config) (aspecs especs : list spec) (e : err) : outcome response :=
    let enc := negotiate_encoding especs (encoding_type_offers cfg) in
    let comp := memb enc (compressors cfg) in
    let ect := negotiate_content_type aspecs (content_type_offers cfg) json_type in
    match lookup ect (codecs cfg) with
    | None => Panic PNil
    | Some c =>
      do b <- marshal_status c (err_code e);
      Ok (mkresp 500%N (Some ect)
                 (if match e with ETooLarge => true | _ => false end then (if comp then Some enc else None) else Some identity)
                 (b ++ (if comp then compress enc [] else [])) (err_code e))
    end.

  Lemma serve_unary_eq cfg reqct accept accept_enc has_body reqcur path reply :
    serve_unary cfg reqct accept accept_enc has_body reqcur path reply =
    do aspecs <- parse_accept accept;
    do especs <- parse_accept accept_enc;
    let enc := negotiate_encoding especs (encoding_type_offers cfg) in
    match (do _ <- (if has_body then get_codec cfg (request_content_type reqct) reqcur else Ok CJSON);
           send_msg cfg path (negotiate_content_type aspecs (content_type_offers cfg) (request_content_type reqct)) reply) with
    | Ok s => Ok (mkresp 200%N (Some (s_ct s)) (if memb enc (compressors cfg) then Some enc else None)
                    (if memb enc (compressors cfg) then compress enc (s_body s) else s_body s) 0%N)
    | Err e => enc_error cfg aspecs especs e
    | Panic p => Panic p
    | OutOfFuel => OutOfFuel
    end.
  Proof. reflexivity. Qed.

  (* a response is the 200 built from what send_msg sent, or the 500 of encError *)
  Lemma serve_unary_inv cfg reqct accept accept_enc has_body reqcur path reply r :
    serve_unary cfg reqct accept accept_enc has_body reqcur path reply = Ok r ->
    exists aspecs especs,
      parse_accept accept = Ok aspecs /\ nonneg aspecs /\ parse_accept accept_enc = Ok especs /\
      let enc := negotiate_encoding especs (encoding_type_offers cfg) in
      ((exists s,
          send_msg cfg path (negotiate_content_type aspecs (content_type_offers cfg) (request_content_type reqct)) reply = Ok s /\
          r = mkresp 200%N (Some (s_ct s)) (if memb enc (compressors cfg) then Some enc else None)
                (if memb enc (compressors cfg) then compress enc (s_body s) else s_body s) 0%N)
       \/ (exists e, r_status r = 500%N /\ r_code r = err_code e)).
  Proof.
    rewrite serve_unary_eq. intros H.
    destruct (parse_accept_ok accept) as [aspecs [Ha Hnn]]. rewrite Ha in H. cbn [bind] in H.
    destruct (parse_accept_ok accept_enc) as [especs [He _]]. rewrite He in H. cbn [bind] in H.
    exists aspecs, especs. repeat (split; [assumption|]). cbv zeta in *.
    assert (Herr : forall e, enc_error cfg aspecs especs e = Ok r -> exists e, r_status r = 500%N /\ r_code r = err_code e).
    { intros e. unfold enc_error. destruct (lookup _ (codecs cfg)); [|discriminate].
      destruct (marshal_status c (err_code e)); cbn [bind]; try discriminate.
      intros E; inversion E; subst r. exists e. split; reflexivity. }
    destruct (if has_body then get_codec cfg (request_content_type reqct) reqcur else Ok CJSON); cbn [bind] in H;
      try discriminate; [|right; eauto].
    destruct (send_msg cfg path _ reply) as [s|e| |]; try discriminate; [|right; eauto].
    left. exists s. split; [reflexivity|]. now inversion H.
  Qed.

  Section Inverse.
    Variable unmarshal : codec -> bytes -> option msg.
    Variable decompress : bytes -> bytes -> bytes.
    Hypothesis marshal_inverse : forall c m b, marshal c m = Ok b -> unmarshal c b = Some m.
    Hypothesis compress_inverse : forall e b, decompress e (compress e b) = b.

    (* Content-Encoding is truthful: undoing what the header names gives the bytes of the codec *)
    Lemma serve_200_body cfg reqct accept accept_enc has_body reqcur path reply r :
      serve_unary cfg reqct accept accept_enc has_body reqcur path reply = Ok r -> r_status r = 200%N ->
      exists aspecs s,
        parse_accept accept = Ok aspecs /\ nonneg aspecs /\
        send_msg cfg path (negotiate_content_type aspecs (content_type_offers cfg) (request_content_type reqct)) reply = Ok s /\
        r_ct r = Some (s_ct s) /\ decode_wire decompress (r_ce r) (r_wire r) = s_body s /\
        (r_ce r = None \/ exists e, r_ce r = Some e /\ memb e (compressors cfg) = true).
    Proof.
      intros H H200.
      destruct (serve_unary_inv _ _ _ _ _ _ _ _ _ H) as (aspecs & especs & Ha & Hnn & He & [(s & Hs & ->)|(e & E & _)]);
        [|rewrite E in H200; discriminate].
      exists aspecs, s. cbn [r_ct r_ce r_wire]. repeat (split; auto).
      - destruct (memb _ (compressors cfg)); cbn [decode_wire]; auto.
      - destruct (memb _ (compressors cfg)) eqn:M; [right; eauto|left; reflexivity].
    Qed.

    Lemma httpbody_passthrough cfg reqct accept accept_enc has_body reqcur path reply r cur :
      serve_unary cfg reqct accept accept_enc has_body reqcur path reply = Ok r -> r_status r = 200%N ->
      select path reply = Some cur -> full_name cur = http_body_name ->
      r_ct r = Some (body_ct cur) /\ decode_wire decompress (r_ce r) (r_wire r) = body_data cur.
    Proof.
      intros H H200 Hsel Hn.
      destruct (serve_200_body _ _ _ _ _ _ _ _ _ H H200) as [aspecs [s [_ [_ [Hs [Hct [Hw _]]]]]]].
      destruct (send_msg_ok _ _ _ _ _ Hs) as [cur' [c [Hsel' [_ [Hp _]]]]].
      rewrite Hsel in Hsel'. inversion Hsel'; subst cur'.
      unfold ResponseSpec.payload in Hp. rewrite Hn in Hp.
      rewrite bytes_eqb_refl in Hp.
      inversion Hp. rewrite Hct, Hw. split; congruence.
    Qed.

    Lemma body_decodes cfg reqct accept accept_enc has_body reqcur path reply r cur :
      serve_unary cfg reqct accept accept_enc has_body reqcur path reply = Ok r -> r_status r = 200%N ->
      select path reply = Some cur -> full_name cur <> http_body_name ->
      lookup (full_name cur) (codecs cfg) = None ->
      exists aspecs t c, parse_accept accept = Ok aspecs /\
        t = negotiate_content_type aspecs (content_type_offers cfg) (request_content_type reqct) /\
        r_ct r = Some t /\ lookup t (codecs cfg) = Some c /\
        unmarshal c (decode_wire decompress (r_ce r) (r_wire r)) = Some cur.
    Proof.
      intros H H200 Hsel Hn Hlk.
      destruct (serve_200_body _ _ _ _ _ _ _ _ _ H H200) as [aspecs [s [Ha [_ [Hs [Hct [Hw _]]]]]]].
      destruct (send_msg_ok _ _ _ _ _ Hs) as [cur' [c [Hsel' [Hc [Hp _]]]]].
      rewrite Hsel in Hsel'. inversion Hsel'; subst cur'.
      set (t := negotiate_content_type aspecs (content_type_offers cfg) (request_content_type reqct)) in *.
      unfold ResponseSpec.payload in Hp.
      destruct (bytes_eqb (full_name cur) http_body_name) eqn:E; [apply bytes_eqb_eq in E; contradiction|].
      destruct (marshal c cur) as [b| | |] eqn:Hm; try discriminate. inversion Hp as [[Eb Et]].
      unfold Response.get_codec in Hc. rewrite Hlk in Hc.
      destruct (lookup t (codecs cfg)) as [c'|] eqn:Hl; [|discriminate].
      destruct (bytes_eqb t http_body_name); [discriminate|]. inversion Hc; subst c'.
      exists aspecs, t, c. split; [auto|]. split; [reflexivity|]. split; [rewrite Hct, <- Et; reflexivity|].
      split; [auto|]. rewrite Hw, <- Eb. apply marshal_inverse. exact Hm.
    Qed.

    Lemma sent_within_limit cfg reqct accept accept_enc has_body reqcur path reply r :
      serve_unary cfg reqct accept accept_enc has_body reqcur path reply = Ok r -> r_status r = 200%N ->
      (N.of_nat (length (decode_wire decompress (r_ce r) (r_wire r))) <= max_send cfg)%N.
    Proof.
      intros H H200.
      destruct (serve_200_body _ _ _ _ _ _ _ _ _ H H200) as [aspecs [s [_ [_ [Hs [_ [Hw _]]]]]]].
      destruct (send_msg_ok _ _ _ _ _ Hs) as [cur' [c [_ [_ [_ Hl]]]]]. rewrite Hw. exact Hl.
    Qed.
  End Inverse.

  (* an over-long reply is answered with the error response, never with a 200 *)
  Lemma over_limit_refused cfg reqct accept accept_enc has_body reqcur path reply r aspecs cur c b ct :
    serve_unary cfg reqct accept accept_enc has_body reqcur path reply = Ok r ->
    parse_accept accept = Ok aspecs ->
    let acc := negotiate_content_type aspecs (content_type_offers cfg) (request_content_type reqct) in
    select path reply = Some cur -> get_codec cfg acc cur = Ok c -> payload c acc cur = Ok (b, ct) ->
    (max_send cfg < N.of_nat (length b))%N ->
    r_status r = 500%N /\ r_code r <> 0%N.
  Proof.
    intros H Ha acc Hsel Hc Hp Hl.
    destruct (serve_unary_inv _ _ _ _ _ _ _ _ _ H) as (aspecs' & especs & Ha' & _ & _ & [(s & Hs & _)|(e & E1 & E2)]).
    - rewrite Ha in Ha'. inversion Ha'; subst aspecs'. fold acc in Hs.
      rewrite (send_msg_limit cfg path acc reply cur c b ct Hsel Hc Hp) in Hs.
      apply N.ltb_lt in Hl. rewrite Hl in Hs. discriminate.
    - rewrite E1, E2. split; [reflexivity|]. destruct e; discriminate.
  Qed.

  Lemma get_codec_body cfg media cur c :
    (forall k, lookup k (codecs cfg) = Some CBody -> k = http_body_name) ->
    get_codec cfg media cur = Ok c -> c = CBody -> full_name cur = http_body_name.
  Proof.
    intros Hb H E. subst c. unfold Response.get_codec in H.
    destruct (lookup (full_name cur) (codecs cfg)) as [c|] eqn:E1.
    - inversion H; subst. apply Hb. exact E1.
    - destruct (lookup media (codecs cfg)) as [c|] eqn:E2; [|discriminate].
      destruct (bytes_eqb media http_body_name) eqn:E3; [discriminate|].
      inversion H; subst. apply Hb in E2. subst. rewrite bytes_eqb_refl in E3. discriminate.
  Qed.

  Lemma get_codec_no_crash cfg media cur : no_crash (get_codec cfg media cur).
  Proof.
    unfold Response.get_codec. destruct (lookup (full_name cur) (codecs cfg)); [exact I|].
    destruct (lookup media (codecs cfg)); [|exact I]. destruct (bytes_eqb media http_body_name); exact I.
  Qed.

  Lemma send_msg_no_crash cfg path accept reply cur :
    sane cfg -> select path reply = Some cur -> no_crash (send_msg cfg path accept reply).
  Proof.
    intros [Hb [_ [Hm _]]] Hsel. apply walk_select in Hsel. unfold Response.send_msg. rewrite Hsel. cbn [bind].
    pose proof (get_codec_no_crash cfg accept cur) as Hn.
    destruct (get_codec cfg accept cur) as [c| | |] eqn:Hc; cbn [bind]; cbn in Hn; auto.
    destruct (bytes_eqb (full_name cur) http_body_name) eqn:E; cbn [bind].
    - destruct (max_send cfg <? _)%N; exact I.
    - assert (Hc' : c <> CBody).
      { intros E'. apply (get_codec_body cfg accept cur c Hb Hc) in E'. rewrite E', bytes_eqb_refl in E. discriminate. }
      specialize (Hm c cur Hc'). destruct (marshal c cur); cbn [bind]; cbn in Hm; auto.
      destruct (max_send cfg <? _)%N; exact I.
  Qed.

  Lemma err_codec_exists cfg aspecs : sane cfg -> nonneg aspecs ->
    exists c, lookup (negotiate_content_type aspecs (content_type_offers cfg) json_type) (codecs cfg) = Some c /\ c <> CBody.
  Proof.
    intros [Hb [[cj Hj] _]] Hnn.
    destruct (negotiate_in aspecs (content_type_offers cfg) json_type Hnn) as [Hin|Heq].
    - apply offers_in in Hin. destruct Hin as [Hin Hne]. destruct (lookup_in _ _ Hin) as [c Hc].
      exists c. split; auto. intros E; subst. apply Hb in Hc. contradiction.
    - rewrite Heq. exists cj. split; auto. intros E; subst. apply Hb in Hj. discriminate Hj.
  Qed.

  (* T5: with the internal codec reachable by message name only, nothing on the unary path panics *)
  Lemma serve_unary_no_crash cfg reqct accept accept_enc has_body reqcur path reply cur :
    sane cfg -> select path reply = Some cur ->
    no_crash (serve_unary cfg reqct accept accept_enc has_body reqcur path reply).
  Proof.
    intros Hsane Hsel. rewrite serve_unary_eq.
    destruct (parse_accept_ok accept) as [aspecs [Ha Hnn]]. rewrite Ha. cbn [bind].
    destruct (parse_accept_ok accept_enc) as [especs [He _]]. rewrite He. cbn [bind].
    set (acc := negotiate_content_type aspecs (content_type_offers cfg) (request_content_type reqct)).
    destruct (err_codec_exists cfg aspecs Hsane Hnn) as [ce [Hce Hne]].
    assert (Herr : forall e, no_crash (enc_error cfg aspecs especs e)).
    { intros e. unfold enc_error. rewrite Hce. destruct Hsane as [_ [_ [_ Hms]]]. specialize (Hms ce (err_code e) Hne).
      destruct (marshal_status ce (err_code e)); cbn [bind]; cbn in Hms; try contradiction; exact I. }
    pose proof (get_codec_no_crash cfg (request_content_type reqct) reqcur) as Hreq.
    destruct (if has_body then get_codec cfg (request_content_type reqct) reqcur else Ok CJSON) as [c0|e| |] eqn:Hr; cbn [bind].
    - pose proof (send_msg_no_crash cfg path acc reply cur Hsane Hsel) as Hs.
      destruct (send_msg cfg path acc reply) as [s|e| |]; cbn in Hs; try contradiction.
      + exact I.
      + apply Herr.
    - apply Herr.
    - destruct has_body; [rewrite Hr in Hreq; cbn in Hreq; contradiction|discriminate].
    - destruct has_body; [rewrite Hr in Hreq; cbn in Hreq; contradiction|discriminate].
  Qed.
End ResponseProofs.

(* with the offers built from the codec keys, no Accept-Encoding can ever select a compressor of
   the default configuration: Content-Encoding is truthful because it is never sent *)
Lemma default_never_compresses especs :
  memb (negotiate_encoding especs (encoding_type_offers default_config)) (compressors default_config) = false.
Proof.
  assert (T : forallb (fun o => negb (memb o (compressors default_config)))
                ([] :: identity :: encoding_type_offers default_config) = true) by reflexivity.
  rewrite forallb_forall in T. apply negb_true_iff, T.
  destruct (negotiate_encoding_in especs (encoding_type_offers default_config)) as [H|[H|H]];
    [left; symmetry; exact H|right; left; symmetry; exact H|right; right; exact H].
Qed.

Lemma resp_path_ok_iff kinds : resp_path_ok kinds = true <-> kinds <> [] /\ Forall (fun k => k = KMessage) kinds.
Proof.
  unfold resp_path_ok. rewrite andb_true_iff, negb_true_iff, forallb_forall, Forall_forall. split.
  - intros [H1 H2]. split; [destruct kinds; [discriminate|discriminate]|].
    intros k Hk. specialize (H2 k Hk). destruct k; try discriminate; reflexivity.
  - intros [H1 H2]. split; [destruct kinds; [contradiction|reflexivity]|].
    intros k Hk. rewrite (H2 k Hk). reflexivity.
Qed.
