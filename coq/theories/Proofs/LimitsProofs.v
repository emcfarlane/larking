(* Proofs about the size gates of Model/Limits.v against Spec/SizeLimit.v, and about the stream
   codecs of Model/Codec.v (byte level, every read schedule) through the refinement of C17. *)
From Larking Require Import Base.GoSem Base.Reader Spec.SizeLimit Model.Codec Model.Limits Proofs.CodecProofs.
Local Open Scope Z_scope.

Lemma wrap64_u32 x : wrap64 (u32 x) = u32 x.
Proof. apply wrap64_small. pose proof (u32_range x). lia. Qed.

Lemma sum_nonneg reads : Forall (fun n => 0 <= n) reads -> 0 <= sum reads.
Proof. induction 1 as [|n r Hn _ IH]; cbn [sum fold_right]; [lia|]. unfold sum in IH. lia. Qed.

Lemma read_all_spec : forall reads limit total,
  total <= limit -> Forall (fun n => 0 <= n) reads ->
  read_all limit total reads = if limit <? total + sum reads then Err ETooLarge else Ok (total + sum reads).
Proof.
  induction reads as [|n r IH]; intros limit total Ht Hf; cbn [read_all sum fold_right].
  - rewrite Z.add_0_r. replace (limit <? total) with false by lia. reflexivity.
  - inversion Hf as [|? ? Hn Hr]; subst. pose proof (sum_nonneg r Hr) as Hs. unfold sum in Hs.
    destruct (limit <? total + n) eqn:E.
    + replace (limit <? total + (n + fold_right Z.add 0 r)) with true by lia. reflexivity.
    + rewrite IH by (auto; lia). unfold sum. rewrite Z.add_assoc. reflexivity.
Qed.

Lemma read_all_total : forall reads limit total,
  match read_all limit total reads with Ok _ | Err _ => True | _ => False end.
Proof.
  induction reads as [|n r IH]; intros limit total; cbn [read_all]; [exact I|].
  destruct (limit <? total + n); [exact I|apply IH].
Qed.

(* case split on every test a gate makes *)
Ltac gate :=
  repeat match goal with
  | |- context [if ?b then _ else _] => let E := fresh "E" in destruct b eqn:E
  | |- context [match ?x with Some _ => _ | None => _ end] => let E := fresh "E" in destruct x eqn:E
  end.

(* What the answer of a receive gate tells about the message on the wire: delivered means complete,
   decodable, at its size, message and frame within the limit; a decodable message is refused only
   on size grounds, and a size refusal means the message or its frame is over the limit. *)
Definition recv_post p c w (r : outcome Z) : Prop :=
  match r with
  | Ok n => n = msg_size p w /\ decodable p w = true /\ n <= maxRecv c /\ wire_len p w <= maxRecv c
  | Err e => (decodable p w = true -> e = ETooLarge) /\
             (e = ETooLarge -> maxRecv c < msg_size p w \/ maxRecv c < wire_len p w)
  | _ => False
  end.

Lemma recv_spec p c w : wf_cfg c -> wf_wire p w -> recv_post p c w (recv p c w).
Proof.
  intros [[Hr1 Hr2] _] (Ha & Hp & Hi & Hw).
  (* gRPC and gRPC-web run the same gate and are judged alike *)
  assert (G : forall comp, w_prefix w < 2 ^ 32 /\ w_avail w <= w_prefix w ->
              recv_post (RGrpc comp) c w (recv_grpc comp c w)).
  { intros comp [Hw1 Hw2]. unfold recv_post, recv_grpc, unmarshal, decodable. cbn [msg_size wire_len].
    rewrite wrap64_u32, (u32_id (w_prefix w)) by lia.
    gate; repeat split; intros; try discriminate; lia. }
  destruct p as [reads| | |comp|comp|]; [| | |exact (G comp Hw)|exact (G comp Hw)|];
    unfold recv_post, decodable; cbn [recv msg_size wire_len].
  1: destruct Hw as [Hf Hs]; unfold recv_http_unary; rewrite read_all_spec by (auto; lia);
     cbn [Z.add]; rewrite Hs, andb_true_r; unfold bind.
  (* size refusals: unary when readAll's total passes the limit, JSON when limit bytes were scanned
     and the object has not closed, protobuf on a prefix over MaxInt or over the limit, WebSocket on
     the frame's length; above, gRPC on the prefix and again on the inflated size *)
  all: unfold recv_http_json, recv_http_proto, recv_ws, unmarshal;
       gate; repeat split; intros; try discriminate; lia.
Qed.

Lemma recv_complete p c w : wf_cfg c -> wf_wire p w ->
  decodable p w = true -> msg_size p w <= maxRecv c -> wire_len p w <= maxRecv c ->
  recv p c w = Ok (msg_size p w).
Proof.
  intros Hc Hw Hd Hs Hl. pose proof (recv_spec p c w Hc Hw) as S.
  destruct (recv p c w) as [n|e| |]; cbn [recv_post] in S; try contradiction.
  - f_equal. apply S.
  - destruct S as [S1 S2]. specialize (S2 (S1 Hd)). lia.
Qed.

Lemma recv_total p c w : match recv p c w with Ok _ | Err _ => True | _ => False end.
Proof.
  destruct p as [reads| | |comp|comp|]; cbn [recv];
    unfold recv_http_unary, recv_http_json, recv_http_proto, recv_grpc, recv_ws, unmarshal.
  1: pose proof (read_all_total reads (maxRecv c) 0) as T; destruct (read_all (maxRecv c) 0 reads);
     try contradiction; cbn [bind].
  all: gate; exact I.
Qed.

Lemma send_total p c size : match send p c size with Ok _ | Err _ => True | _ => False end.
Proof. destruct p; cbn [send]; unfold send_plain, send_grpc; gate; exact I. Qed.

Lemma body_chunks_spec : forall fuel limit total, 1 <= limit -> total < Z.of_nat fuel ->
  Forall (fun n => 1 <= n <= limit) (body_chunks fuel limit total) /\
  sum (body_chunks fuel limit total) = Z.max 0 total.
Proof.
  induction fuel as [|f IH]; intros limit total Hl Hf; [cbn; split; [constructor|lia]|].
  cbn [body_chunks]. destruct (total <=? 0) eqn:E0; [split; [constructor|cbn; lia]|].
  destruct (total <=? limit) eqn:E1.
  - split; [repeat constructor; lia|]. cbn. lia.
  - destruct (IH limit (total - limit) Hl ltac:(lia)) as [H1 H2]. split.
    + constructor; [lia|exact H1].
    + cbn [sum fold_right] in *. unfold sum in H2. rewrite H2. lia.
Qed.

Lemma recv_run_meets_spec p c : wf_cfg c -> forall ws, Forall (wf_wire p) ws ->
  recv_ok (maxRecv c) (map (sent_of p) ws) (fst (recv_run p c ws))
          (match snd (recv_run p c ws) with EndOk => true | _ => false end) = true.
Proof.
  intros Hc. induction ws as [|w r IH]; intros Hf; [reflexivity|].
  inversion Hf as [|? ? Hw Hr]; subst. specialize (IH Hr).
  cbn [map recv_ok recv_run]. unfold within. cbn [sent_of s_ok s_size s_wire].
  pose proof (recv_spec p c w Hc Hw) as S.
  destruct (recv p c w) as [n|e| |]; cbn [recv_post] in S; try contradiction.
  - destruct S as (-> & Hd & Hle & Hwl). rewrite Hd.
    destruct (recv_run p c r) as [ds e]. cbn [fst snd] in *.
    replace (msg_size p w <=? maxRecv c) with true by lia.
    replace (wire_len p w <=? maxRecv c) with true by lia.
    cbn [andb]. rewrite Z.eqb_refl. exact IH.
  - destruct S as [S1 S2]. destruct (decodable p w); cbn [andb]; [|destruct e; reflexivity].
    rewrite (S1 eq_refl) in *. specialize (S2 eq_refl). cbn [fst snd end_of].
    destruct (msg_size p w <=? maxRecv c) eqn:E1; destruct (wire_len p w <=? maxRecv c) eqn:E2;
      try reflexivity. lia.
Qed.

Lemma send_spec p c size :
  match send p c size with
  | Ok n => size <= maxSend c /\ (0 <= size -> n = size)
  | Err e => e = ETooLarge /\
             (maxSend c < size \/ match p with SGrpc | SGrpcWeb => 2 ^ 32 <= size | _ => False end)
  | _ => False
  end.
Proof.
  destruct p; cbn [send]; unfold send_plain, send_grpc; gate; repeat split; try lia.
  all: intros Hz; apply u32_id; lia.
Qed.

Lemma send_run_meets_spec p c : forall sizes, Forall (fun s => 0 <= s) sizes ->
  (* a reply that does not fit a gRPC frame is over every limit the gRPC paths accept *)
  (match p with SGrpc | SGrpcWeb => maxSend c < 2 ^ 32 | _ => True end) ->
  let '(res, arr) := send_run p c sizes in
  let att := firstn (length res) sizes in
  send_ok (maxSend c) att res arr = true.
Proof.
  intros sizes Hf Hg. induction sizes as [|s r IH]; [reflexivity|].
  inversion Hf as [|? ? Hs Hr]; subst. specialize (IH Hr). cbn [send_run].
  pose proof (send_spec p c s) as S.
  destruct (send p c s) as [n|e| |]; try contradiction.
  - destruct S as [Hle Hn]. rewrite (Hn Hs).
    destruct (send_run p c r) as [rs ar]. cbn [length firstn send_ok].
    replace (s <=? maxSend c) with true by lia. rewrite Z.eqb_refl. exact IH.
  - cbn [length firstn send_ok]. replace (s <=? maxSend c) with false; [reflexivity|].
    destruct S as [_ S]. destruct p; lia.
Qed.

Lemma codec_delivers_fitting c b s limit m R : (0 < limit)%nat -> (N.of_nat limit < 2 ^ 63)%N ->
  fits c limit m -> b ++ rem s = write_next c m ++ R ->
  exists dst n s', read_next c b s limit = RRet dst n None s' /\ firstn n dst = m.
Proof.
  intros H1 H2 Hfit HL. pose proof (read_next_refines c b s limit H1 H2) as Rf.
  destruct (read_next c b s limit) as [dst n e s'| |]; try contradiction.
  apply refines_inv in Rf. rewrite HL, (parse_write c limit m R Hfit H2) in Rf.
  destruct Rf as (_ & -> & _ & _ & [-> | (_ & -> & _)]); [eauto|destruct Hfit].
Qed.
