(* Instances: a request path is an instance of a template for the string-level specification
   (Spec/Template.v: inst, strict) exactly when the edges that larking compiles from the template's
   tokens (Model/Trie.v: compile) cover the path's tokens (Spec/Route.v: MatchEdges) -- with the same
   captures (inst_iff_cover). The domain is that of C01/C02: paths that lex_path accepts. *)
From Larking Require Import Base.GoSem Model.Lexer Model.Trie Model.Match Spec.Grammar Spec.Route Spec.Template
  Spec.TemplateAbs Proofs.LexerProofs Proofs.TrieProofs Proofs.RoutingProofs Proofs.TemplateProofs.
Local Open Scope N_scope.

Definition pseg_tok (p : pseg) : token :=
  match p with PLit v => Tok TLiteral v | PStar => tStar | PStarStar => tStarStar end.
(* "/" p1 "/" p2 ... ; a pattern is this without the leading "/" *)
Definition sl_toks (ps : list pseg) : list token := flat_map (fun p => [tSlash; pseg_tok p]) ps.
Definition pat_toks (ps : list pseg) : list token := tl (sl_toks ps).

Definition seg_edge (s : tseg) : edge :=
  match s with
  | TPlain (PLit v) => ELit (47 :: v)
  | TPlain p => EVar [pseg_tok p]
  | TVar _ ps => EVar (pat_toks ps)
  end.
Definition seg_vf (s : tseg) : list (list str) :=
  match s with TPlain (PLit _) => [] | TPlain _ => [[]] | TVar ks _ => [ks] end.
Definition verb_edges (v : option sstr) : list edge := match v with Some v => [ELit (58 :: v)] | None => [] end.
Definition edges_of (t : tmpl) : list edge := map seg_edge (t_segs t) ++ verb_edges (t_verb t).
Definition vfs_of (t : tmpl) : list (list str) := flat_map seg_vf (t_segs t).

Lemma sl_toks_cons p ps : sl_toks (p :: ps) = tSlash :: pseg_tok p :: sl_toks ps.
Proof. reflexivity. Qed.
Lemma sl_toks_tl ps : ps <> [] -> sl_toks ps = tSlash :: pat_toks ps.
Proof. destruct ps; [contradiction|reflexivity]. Qed.

Lemma AbsP_toks ts p : AbsP ts p -> ts = [pseg_tok p].
Proof. intros []; reflexivity. Qed.
Lemma AbsPs_toks ts pp : AbsPs ts pp -> ts = pat_toks pp /\ pp <> [].
Proof.
  induction 1 as [ts p H|ts p rest ps H HS [IH1 IH2]].
  - apply AbsP_toks in H. subst. split; [reflexivity|discriminate].
  - apply AbsP_toks in H. subst. split; [|discriminate]. unfold pat_toks. rewrite sl_toks_cons. cbn [tl app].
    now rewrite (sl_toks_tl ps IH2).
Qed.

Section Compile.
Variable resolves : str -> list str -> bool.
Notation compile := (compile resolves).

Lemma field_keys_abs fp ks : AbsFP fp ks -> forall acc t rest, is TDot t = false ->
  match fp with _ :: tail => field_keys acc (tail ++ t :: rest) = (acc ++ tl ks, t :: rest) | [] => False end.
Proof.
  induction 1 as [v|v fp' ks' H IH]; intros acc t rest Ht.
  - cbn [app tl]. rewrite app_nil_r. destruct rest as [|t2 r]; cbn; [reflexivity|]. now rewrite Ht.
  - destruct fp' as [|i tail]; [inversion H|]. specialize (IH (acc ++ [tval i]) t rest Ht). cbn [tl].
    cbn [app field_keys]. change (is TDot tDot) with true. cbv iota. rewrite IH.
    inversion H; subst; cbn [tval tl]; rewrite <- app_assoc; reflexivity.
Qed.
Lemma AbsFP_hd fp ks : AbsFP fp ks -> exists v tail ks', fp = Tok TIdent v :: tail /\ ks = v :: ks'.
Proof. intros [v|v rest ks' H]; eauto. Qed.

Lemma pat_toks_novarend ps : Forall (fun t => is TVarEnd t = false) (pat_toks ps).
Proof.
  assert (H : Forall (fun t => is TVarEnd t = false) (sl_toks ps)).
  { induction ps as [|p ps IH]; [constructor|]. rewrite sl_toks_cons. constructor; [reflexivity|].
    constructor; [destruct p; reflexivity|exact IH]. }
  unfold pat_toks. destruct (sl_toks ps); [constructor|]. now inversion H.
Qed.

Lemma compile_seg_abs ts sg : AbsSeg ts sg -> forall f mid cont,
  compile (S f) mid (tSlash :: ts ++ cont) = Err EInvalid \/
  compile (S f) mid (tSlash :: ts ++ cont) = (do r <- compile f mid cont; Ok (seg_edge sg :: fst r, seg_vf sg ++ snd r)).
Proof.
  intros [ts' p G|fp ks Hfp|fp ks ps pp Hfp Hps] f mid cont.
  - destruct G; right; reflexivity.
  - destruct (AbsFP_hd _ _ Hfp) as (v & tail & ks' & -> & ->).
    pose proof (field_keys_abs _ _ Hfp [v] tClose cont eq_refl) as E. cbn [tl] in E.
    cbn [compile app ttyp tSlash tOpen tval]. rewrite <- app_assoc. cbn [app]. rewrite E.
    cbn [app ttyp tClose]. destruct (resolves mid (v :: ks')); [right; reflexivity|left; reflexivity].
  - destruct (AbsFP_hd _ _ Hfp) as (v & tail & ks' & -> & ->).
    destruct (AbsPs_toks _ _ Hps) as [-> Hpn].
    pose proof (field_keys_abs _ _ Hfp [v] tEq (pat_toks pp ++ [tClose] ++ cont) eq_refl) as E. cbn [tl] in E.
    cbn [compile app ttyp tSlash tOpen tval].
    replace ((tail ++ tEq :: pat_toks pp ++ [tClose]) ++ cont) with (tail ++ tEq :: pat_toks pp ++ [tClose] ++ cont)
      by (rewrite <- !app_assoc; cbn [app]; rewrite <- app_assoc; reflexivity).
    rewrite E. cbn [app ttyp tEq]. rewrite (until_varend_app (pat_toks pp) cont (pat_toks_novarend pp)).
    destruct (resolves mid (v :: ks')); [right; reflexivity|left; reflexivity].
Qed.

Lemma compile_segs_abs ss segs : AbsSegs ss segs -> forall fuel mid tail es vfs,
  compile fuel mid (tSlash :: ss ++ tail) = Ok (es, vfs) ->
  exists f' es' vfs', compile f' mid tail = Ok (es', vfs') /\
    es = map seg_edge segs ++ es' /\ vfs = flat_map seg_vf segs ++ vfs'.
Proof.
  induction 1 as [ts sg G|ts sg rest segs G HS IH]; intros fuel mid tail es vfs H;
    (destruct fuel as [|f]; [discriminate H|]).
  - destruct (compile_seg_abs ts sg G f mid tail) as [E|E]; rewrite E in H; [discriminate|].
    destruct (compile f mid tail) as [[es' vfs']| | |] eqn:Ec; try discriminate. cbn in H. inversion H; subst.
    exists f, es', vfs'. cbn. rewrite app_nil_r. auto.
  - rewrite <- app_assoc in H. cbn [app] in H.
    destruct (compile_seg_abs ts sg G f mid (tSlash :: rest ++ tail)) as [E|E]; rewrite E in H; [discriminate|].
    destruct (compile f mid (tSlash :: rest ++ tail)) as [[es1 vfs1]| | |] eqn:Ec; try discriminate.
    cbn in H. inversion H; subst.
    destruct (IH _ _ _ _ _ Ec) as (f' & es' & vfs' & A & -> & ->).
    exists f', es', vfs'. split; [exact A|]. cbn [map flat_map]. rewrite <- app_assoc. auto.
Qed.

(* what larking compiles from the tokens of a template is a function of the template value *)
Theorem compile_abs toks t fuel mid es vfs : AbsT toks t ->
  compile fuel mid toks = Ok (es, vfs) -> es = edges_of t /\ vfs = vfs_of t.
Proof.
  intros [ss sl HS|ss sl v HS] H; destruct (compile_segs_abs _ _ HS _ _ _ _ _ H) as (f' & es' & vfs' & A & -> & ->);
    unfold edges_of, vfs_of; cbn [t_segs t_verb verb_edges]; (destruct f' as [|f']; [discriminate A|]);
    cbn in A; inversion A; subst; rewrite ?app_nil_r; auto.
Qed.
End Compile.
Print Assumptions compile_abs.

(* the tokens of a request path *)
Fixpoint ptoks (pieces : list sstr) : list token :=
  match pieces with [] => [] | x :: r => tSlash :: Tok TPath x :: ptoks r end.
Definition tail_toks (v : option sstr) : list token :=
  match v with Some v => [tColon; Tok TPath v; tEOF] | None => [tEOF] end.

Lemma spell_ptoks l : spell (ptoks l) = flat_map (fun x => 47 :: x) l.
Proof.
  induction l as [|x l IH]; [reflexivity|].
  change (spell (ptoks (x :: l))) with (47 :: x ++ spell (ptoks l)). now rewrite IH.
Qed.
Lemma join_seps x r : 47 :: join 47 (x :: r) = flat_map (fun y => 47 :: y) (x :: r).
Proof. reflexivity. Qed.
Lemma join_seps_inj c cp : 47 :: c = flat_map (fun y => 47 :: y) cp -> c = join 47 cp.
Proof. destruct cp as [|y cp']; [discriminate|]. rewrite <- join_seps. now intros [= ->]. Qed.

Lemma strip_suffix_spec suf s a : strip_suffix suf s = Some a -> s = a ++ suf.
Proof.
  revert a. induction s as [|x s IH]; intros a H.
  - cbn [strip_suffix] in H. destruct (sstr_eqb [] suf) eqn:E; [|discriminate]. apply sstr_eqb_eq in E. inversion H; subst. reflexivity.
  - cbn [strip_suffix] in H. destruct (sstr_eqb (x :: s) suf) eqn:E.
    + apply sstr_eqb_eq in E. inversion H; subst. reflexivity.
    + destruct (strip_suffix suf s) as [a'|] eqn:Es; [|discriminate]. inversion H; subst. cbn. now rewrite (IH a' eq_refl).
Qed.

Section Inst.
Variables isLetter isNumber : N -> bool.
Notation is_path := (is_path isLetter isNumber).
Notation PathToks := (PathToks isLetter isNumber).
Notation inst := (inst isLetter isNumber).

Lemma inst_eq strict t path :
  inst strict t path =
  match normalise path with
  | [] => None
  | x :: body =>
    if x =? 47 then
      match (match t_verb t with Some v => strip_suffix (58 :: v) body | None => Some body end) with
      | Some sp =>
        let pieces := split_on 47 sp in
        if forallb (fun x => negb (is_nil x)) pieces && (negb strict || forallb (forallb (s_path isLetter isNumber)) pieces)
        then match_segs (t_segs t) pieces else None
      | None => None
      end
    else None
  end.
Proof.
  unfold Template.inst. change (s_normalise path) with (normalise path).
  destruct (normalise path) as [|x body]; [reflexivity|]. destruct x as [|p]; [reflexivity|].
  do 6 (destruct p as [p|p|]; try reflexivity).
Qed.

Definition piece_ok (x : sstr) : Prop := x <> [] /\ forallb is_path x = true.

Lemma PathToks_build pieces verb : Forall piece_ok pieces ->
  match verb with Some v => piece_ok v | None => True end -> PathToks (ptoks pieces ++ tail_toks verb).
Proof.
  intros H Hv. induction H as [|x r [Hx1 Hx2] H IH].
  - destruct verb as [v|]; cbn; [destruct Hv; repeat constructor; auto|constructor].
  - cbn [ptoks app]. now constructor.
Qed.

End Inst.

Lemma MP_star1 p a z : ttyp p = TStar -> Forall nosep a -> at_sep z -> a ++ z <> [] -> MatchPat [p] a z.
Proof.
  intros Hp Ha Hz Hn. rewrite <- (app_nil_r a). apply MP_star; [exact Hp|exact Ha|exact Hz|exact Hn|constructor].
Qed.
Lemma MP_starstar1 p a z : ttyp p = TStarStar -> Forall noverb a -> at_verb z -> a ++ z <> [] -> MatchPat [p] a z.
Proof.
  intros Hp Ha Hz Hn. rewrite <- (app_nil_r a). apply MP_starstar; [exact Hp|exact Ha|exact Hz|exact Hn|constructor].
Qed.
Lemma ptoks_noverb r : Forall noverb (ptoks r).
Proof. induction r as [|x r IH]; [constructor|]. cbn [ptoks]. repeat constructor. exact IH. Qed.

Lemma MatchPat_nil_inv c z : MatchPat [] c z -> c = [].
Proof. intros H. inversion H. reflexivity. Qed.
Lemma MatchPat_slash_inv pat c z : MatchPat (tSlash :: pat) c z ->
  exists t c2, c = t :: c2 /\ is TSlash t = true /\ MatchPat pat c2 z.
Proof.
  intros H. inversion H as [|? t ? c2 ? Hp Ht HM|? t ? c2 ? Hp|? a ? c2 ? Hp|? a ? c2 ? Hp]; subst; try discriminate Hp.
  eauto.
Qed.

Definition filt (l : list (list sstr * sstr)) : list (list sstr * sstr) :=
  filter (fun fc => negb (is_nil (fst fc))) l.
Lemma filt_snoc vf vfs caps c :
  filt (combine (vf :: vfs) (rev (caps ++ [c]))) = filt [(vf, c)] ++ filt (combine vfs (rev caps)).
Proof. rewrite rev_app_distr. unfold filt. cbn [rev app combine filter]. now destruct (negb _). Qed.

(* every variable has a field path and a pattern *)
Definition wf_segs (segs : list tseg) : Prop := forall fp ps, In (TVar fp ps) segs -> fp <> [] /\ ps <> [].
Lemma wf_segs_tl s segs : wf_segs (s :: segs) -> wf_segs segs.
Proof. intros H fp ps Hin. apply H. now right. Qed.

(* a segment that is no literal is a variable edge for larking: the field path it binds ([] for a bare
   wildcard, which [inst] reports no value for) and its pattern *)
Definition seg_pat (sg : tseg) : option (list sstr * list pseg) :=
  match sg with TPlain (PLit _) => None | TPlain p => Some ([], [p]) | TVar ks ps => Some (ks, ps) end.

Lemma seg_pat_none sg : seg_pat sg = None -> exists l, sg = TPlain (PLit l).
Proof. destruct sg as [[l| |]|ks ps]; try discriminate. eauto. Qed.
Lemma seg_pat_some sg segs ks ps : seg_pat sg = Some (ks, ps) -> wf_segs (sg :: segs) ->
  ps <> [] /\ seg_edge sg = EVar (pat_toks ps) /\ seg_vf sg = [ks] /\
  forall pieces, match_segs (sg :: segs) pieces =
    match match_pat ps pieces with
    | Some (c, rest) =>
      match match_segs segs rest with Some cs => Some (filt [(ks, join 47 c)] ++ cs) | None => None end
    | None => None
    end.
Proof.
  intros E Hw. assert (Hm : forall A (x : option A), x = match x with Some a => Some a | None => None end) by (now intros A []).
  destruct sg as [[l| |]|ks' ps']; [discriminate E| | |]; injection E as <- <-.
  1, 2: split; [discriminate|]; repeat split; intros pieces; cbn [match_segs];
    destruct (match_pat _ pieces) as [[c rest]|]; [apply Hm|reflexivity].
  destruct (Hw ks' ps' (or_introl eq_refl)) as [Hk Hp]. split; [exact Hp|]. repeat split.
  intros pieces. cbn [match_segs]. destruct ks'; [contradiction|reflexivity].
Qed.

Section Cover.
Variable verb : option sstr.
Notation tail := (tail_toks verb).

(* what is left of the path's tokens: the tokens of the remaining pieces and the end -- or nothing at all
   when a final wildcard has taken the end marker with it (at_sep and at_verb do not admit it) *)
Definition resid (rest : list sstr) (z : list token) : Prop :=
  z = ptoks rest ++ tail \/ (rest = [] /\ verb = None /\ z = []).

Lemma tail_at_sep r : at_sep (ptoks r ++ tail) \/ (r = [] /\ verb = None).
Proof. destruct r; [|left; left; reflexivity]. destruct verb; [left; right; reflexivity|right; auto]. Qed.
Lemma resid_at_verb rest z : resid rest z -> at_verb z -> rest = [].
Proof. intros [->|(-> & _)] H; [|reflexivity]. destruct rest; [reflexivity|discriminate H]. Qed.

Definition pat_cover (ps : list pseg) (pieces c rest : list sstr) : Prop :=
  exists ctoks z, MatchPat (sl_toks ps) ctoks z /\ ptoks pieces ++ tail = ctoks ++ z /\
    spell ctoks = flat_map (fun x => 47 :: x) c /\ resid rest z.

Lemma pat_cover_cons p ps x r c0 rest c1 z :
  MatchPat (pseg_tok p :: sl_toks ps) c1 z -> Tok TPath x :: ptoks r ++ tail = c1 ++ z ->
  spell c1 = x ++ flat_map (fun y => 47 :: y) c0 -> resid rest z -> pat_cover (p :: ps) (x :: r) (x :: c0) rest.
Proof.
  intros M Eq Sp Dz. exists (tSlash :: c1), z. split; [now apply MP_slash|]. split; [cbn [ptoks app]; now rewrite Eq|].
  split; [|exact Dz]. rewrite spell_cons, Sp. reflexivity.
Qed.

Lemma match_pat_cover ps : forall pieces c rest, match_pat ps pieces = Some (c, rest) -> pat_cover ps pieces c rest.
Proof.
  induction ps as [|p ps IH]; intros pieces c rest H.
  - injection H as <- <-. exists [], (ptoks pieces ++ tail). repeat split; [constructor|now left].
  - destruct pieces as [|x r]; [discriminate H|]. cbn [match_pat] in H. destruct p as [l| |].
    + destruct (sstr_eqb l x) eqn:El; [|discriminate]. apply sstr_eqb_eq in El. subst l.
      destruct (match_pat ps r) as [[c' z']|] eqn:Em; [|discriminate]. injection H as <- <-.
      destruct (IH _ _ _ Em) as (ctoks' & z & M & Eq & Sp & Dz).
      apply (pat_cover_cons _ _ _ _ _ _ (Tok TPath x :: ctoks') z); [now apply MP_lit|now rewrite Eq| |exact Dz].
      rewrite spell_cons, Sp. reflexivity.
    + destruct (match_pat ps r) as [[c' z']|] eqn:Em; [|discriminate]. injection H as <- <-.
      destruct (IH _ _ _ Em) as (ctoks' & z & M & Eq & Sp & Dz).
      destruct (tail_at_sep r) as [Hs|[-> Ev]].
      * apply (pat_cover_cons _ _ _ _ _ _ ([Tok TPath x] ++ ctoks') z); [|now rewrite Eq| |exact Dz].
        -- apply MP_star; [reflexivity|repeat constructor|now rewrite <- Eq|discriminate|exact M].
        -- rewrite spell_app, spell_one, Sp. reflexivity.
      * (* the last piece and nothing behind it: the star takes the end marker too *)
        destruct ps; [|destruct p; discriminate Em]. injection Em as <- <-.
        apply (pat_cover_cons _ _ _ _ _ _ [Tok TPath x; tEOF] []); [|now rewrite Ev| |right; auto].
        -- apply MP_star1; [reflexivity|repeat constructor|exact I|discriminate].
        -- cbn. now rewrite !app_nil_r.
    + destruct ps; [|discriminate]. injection H as <- <-. destruct verb as [v|] eqn:Ev.
      * apply (pat_cover_cons _ _ _ _ _ _ (Tok TPath x :: ptoks r) [tColon; Tok TPath v; tEOF]); [|now rewrite Ev| |now left; rewrite Ev].
        -- apply MP_starstar1; [reflexivity|constructor; [reflexivity|apply ptoks_noverb]|reflexivity|discriminate].
        -- rewrite spell_cons, spell_ptoks. reflexivity.
      * apply (pat_cover_cons _ _ _ _ _ _ (Tok TPath x :: ptoks r ++ [tEOF]) []); [|now rewrite Ev, app_nil_r| |right; auto].
        -- apply MP_starstar1; [reflexivity| |exact I|discriminate].
           constructor; [reflexivity|]. apply Forall_app. split; [apply ptoks_noverb|repeat constructor].
        -- rewrite spell_cons, spell_app, spell_ptoks. cbn [tval]. now rewrite app_nil_r.
Qed.

Lemma match_segs_nil segs cs : wf_segs segs -> match_segs segs [] = Some cs -> segs = [].
Proof.
  destruct segs as [|[p|fp ps] segs']; intros Hw H; [reflexivity| |].
  - cbn in H. discriminate.
  - destruct (Hw fp ps (or_introl eq_refl)) as [_ Hps]. destruct ps; [contradiction|]. cbn in H. discriminate.
Qed.

Definition covered (segs : list tseg) (toks : list token) (cs : list (list sstr * sstr)) : Prop :=
  exists caps, MatchEdges (map seg_edge segs ++ verb_edges verb) toks caps /\
    cs = filt (combine (flat_map seg_vf segs) (rev caps)).

Lemma match_segs_cover segs : forall pieces cs, wf_segs segs -> match_segs segs pieces = Some cs ->
  covered segs (ptoks pieces ++ tail) cs.
Proof.
  induction segs as [|sg segs IH]; intros pieces cs Hw H.
  - cbn in H. destruct pieces; [|discriminate]. injection H as <-. exists []. split; [|reflexivity].
    cbn [map app ptoks]. destruct verb as [v|]; cbn [verb_edges tail_toks].
    + apply (ME_lit tColon (Tok TPath v) [tEOF] [] []). apply ME_end. cbn; lia.
    + apply ME_end. cbn; lia.
  - pose proof (wf_segs_tl _ _ Hw) as Hw'. unfold covered. cbn [map flat_map app].
    destruct (seg_pat sg) as [[ks ps]|] eqn:Esg.
    + (* one variable edge: its pattern against the pieces, then the rest *)
      destruct (seg_pat_some _ _ _ _ Esg Hw) as (Hps & -> & -> & Em). rewrite Em in H.
      destruct (match_pat ps pieces) as [[c rest]|] eqn:Emp; [|discriminate].
      destruct (match_segs segs rest) as [cs'|] eqn:Es; [|discriminate]. injection H as <-.
      destruct (match_pat_cover ps pieces c rest Emp) as (ctoks & z & M & Eq & Sp & Dz).
      rewrite (sl_toks_tl ps Hps) in M. destruct (MatchPat_slash_inv _ _ _ M) as (t & c1 & -> & _ & M1).
      destruct pieces as [|x r]; [destruct ps; [contradiction|discriminate Emp]|].
      injection Eq as <- Eq. rewrite spell_cons in Sp.
      pose proof (join_seps_inj _ _ Sp) as Ecap.
      assert (Hne : c1 ++ z <> []) by (rewrite <- Eq; discriminate).
      cbn [ptoks app]. rewrite Eq, <- Ecap.
      destruct Dz as [->|(-> & Ev & ->)].
      * destruct (IH _ _ Hw' Es) as (caps' & HM & ->). exists (caps' ++ [spell c1]).
        split; [now apply ME_var|apply eq_sym, filt_snoc].
      * pose proof (match_segs_nil _ _ Hw' Es) as ->. injection Es as <-. rewrite Ev.
        exists ([] ++ [spell c1]). split; [|apply eq_sym, filt_snoc].
        apply ME_var; [reflexivity|exact Hne|exact M1|apply ME_end; cbn; lia].
    + destruct (seg_pat_none _ Esg) as [l ->]. cbn [match_segs] in H.
      destruct pieces as [|x r]; [discriminate H|]. cbn [match_pat] in H.
      destruct (sstr_eqb l x) eqn:El; [|discriminate]. apply sstr_eqb_eq in El. subst l.
      destruct (IH _ _ Hw' H) as (caps & HM & Hcs). exists caps. split; [|exact Hcs].
      apply (ME_lit tSlash (Tok TPath x)). exact HM.
Qed.
End Cover.

Lemma AbsFP_nonnil fp ks : AbsFP fp ks -> ks <> [].
Proof. intros []; discriminate. Qed.
Lemma AbsSegs_wf ss segs : AbsSegs ss segs -> wf_segs segs.
Proof.
  assert (H1 : forall ts sg, AbsSeg ts sg -> forall fp ps, sg = TVar fp ps -> fp <> [] /\ ps <> []).
  { intros ts sg [ts' p G|fp' ks Hfp|fp' ks ps' pp Hfp Hps] fp ps E; inversion E; subst.
    - split; [eapply AbsFP_nonnil; eauto|discriminate].
    - split; [eapply AbsFP_nonnil; eauto|]. now destruct (AbsPs_toks _ _ Hps). }
  induction 1 as [ts sg G|ts sg rest segs G HS IH]; intros fp ps [E|Hin]; try contradiction; eauto.
Qed.

Section InstCover.
Variables isLetter isNumber : N -> bool.
Hypothesis sane : Sane isLetter isNumber.
Notation is_path := (is_path isLetter isNumber).
Notation is_literal := (is_literal isLetter isNumber).

Definition wf_t (t : tmpl) : Prop :=
  wf_segs (t_segs t) /\
  match t_verb t with Some v => nonempty_all (s_literal isLetter isNumber) v = true | None => True end.

Lemma literal_is_path v : forallb is_literal v = true -> forallb is_path v = true.
Proof.
  intros H. rewrite forallb_forall in *. intros x Hx. specialize (H x Hx). unfold Lexer.is_path. rewrite H. reflexivity.
Qed.
Lemma nonempty_all_inv (q : N -> bool) v : nonempty_all q v = true -> v <> [] /\ forallb q v = true.
Proof. unfold nonempty_all. destruct v; cbn; [discriminate|]. intros H. split; [discriminate|exact H]. Qed.

(* an instance is a path made of the pieces that are matched, and of the template's verb *)
Lemma inst_pieces t p cs : wf_t t -> inst isLetter isNumber true t p = Some cs ->
  exists pieces, PathToks isLetter isNumber (ptoks pieces ++ tail_toks (t_verb t)) /\
    spell (ptoks pieces ++ tail_toks (t_verb t)) = normalise p /\
    match_segs (t_segs t) pieces = Some cs.
Proof.
  intros [Hw Hv] H. rewrite inst_eq in H.
  destruct (normalise p) as [|x body] eqn:En; [discriminate|].
  destruct (N.eqb_spec x 47) as [->|]; [|discriminate].
  destruct (match t_verb t with Some v => strip_suffix (58 :: v) body | None => Some body end) as [sp|] eqn:Esp; [|discriminate].
  cbv zeta in H.
  destruct (forallb (fun x => negb (is_nil x)) (split_on 47 sp) &&
            (negb true || forallb (forallb (s_path isLetter isNumber)) (split_on 47 sp))) eqn:Ec; [|discriminate].
  apply andb_true_iff in Ec. destruct Ec as [Hne Hpc]. cbn [negb orb] in Hpc.
  set (pieces := split_on 47 sp) in *. exists pieces.
  assert (Hok : Forall (piece_ok isLetter isNumber) pieces).
  { apply Forall_forall. intros y Hy. rewrite forallb_forall in Hne, Hpc. specialize (Hne y Hy). specialize (Hpc y Hy).
    split; [destruct y; [discriminate|discriminate]|].
    rewrite forallb_forall in *. intros r Hr. rewrite <- s_path_eq. now apply Hpc. }
  assert (Hvok : match t_verb t with Some v => piece_ok isLetter isNumber v | None => True end).
  { destruct (t_verb t) as [v|]; [|exact I]. destruct (nonempty_all_inv _ _ Hv) as [A B]. split; [exact A|now apply literal_is_path]. }
  split; [exact (PathToks_build isLetter isNumber pieces (t_verb t) Hok Hvok)|]. split; [|exact H].
  rewrite spell_app, spell_ptoks.
  assert (E1 : flat_map (fun y => 47 :: y) pieces = 47 :: sp).
  { pose proof (split_on_join 47 sp) as Ej. fold pieces in Ej. pose proof (split_on_nonnil 47 sp) as Hn. fold pieces in Hn.
    destruct pieces as [|y r]; [contradiction|]. rewrite <- join_seps. now rewrite Ej. }
  rewrite E1. destruct (t_verb t) as [v|].
  - apply strip_suffix_spec in Esp. subst body. cbn [tail_toks].
    change (spell [tColon; Tok TPath v; tEOF]) with (58 :: v ++ [] ++ []). now rewrite !app_nil_r.
  - inversion Esp; subst. cbn [tail_toks]. change (spell [tEOF]) with (@nil N). now rewrite app_nil_r.
Qed.

Lemma inst_cover t p cs ptoks0 : wf_t t ->
  lex_path isLetter isNumber (normalise p) = Ok ptoks0 -> inst isLetter isNumber true t p = Some cs ->
  exists caps, MatchEdges (edges_of t) ptoks0 caps /\ cs = filt (combine (vfs_of t) (rev caps)).
Proof.
  intros Hwf Hl H. destruct (inst_pieces t p cs Hwf H) as (pieces & HP & Hs & Hm).
  destruct (lex_path_sound _ _ _ _ Hl) as (HP0 & Hs0 & _).
  assert (E : ptoks0 = ptoks pieces ++ tail_toks (t_verb t)).
  { apply (PathToks_unique isLetter isNumber sane); auto. now rewrite Hs0, Hs. }
  subst ptoks0. destruct Hwf as [Hw _]. exact (match_segs_cover (t_verb t) (t_segs t) pieces cs Hw Hm).
Qed.
End InstCover.

Lemma AbsSegs_nonnil ss segs : AbsSegs ss segs -> segs <> [].
Proof. intros []; discriminate. Qed.

(* a template value that renders a derivation is well formed *)
Lemma Tmpl_AbsT_wf isLetter isNumber toks t : Tmpl isLetter isNumber toks -> AbsT toks t ->
  wf_t isLetter isNumber t /\ t_segs t <> [].
Proof.
  intros HT HA. assert (H : wf_segs (t_segs t) /\ t_segs t <> []).
  { destruct HA as [ss sl HS|ss sl v HS]; cbn [t_segs]; split; eauto using AbsSegs_wf, AbsSegs_nonnil. }
  split; [split|]; try apply H.
  destruct HA as [ss sl HS|ss sl v HS]; cbn [t_verb]; [exact I|].
  remember (tSlash :: ss ++ [tColon; Tok TLiteral v; tEOF]) as toks eqn:Et.
  destruct HT as [ss' b HS'|ss' b v' HS' Hv']; injection Et as Et.
  - (* the segments of a derivation contain no ":" *)
    exfalso. change [tColon; Tok TLiteral v; tEOF] with ([tColon; Tok TLiteral v] ++ [tEOF]) in Et.
    rewrite app_assoc in Et. apply app_inj_tail in Et. destruct Et as [Et _].
    pose proof (Segs_toks _ _ _ _ HS') as Hn. rewrite Et in Hn.
    apply Forall_app in Hn. destruct Hn as [_ Hn]. apply Forall_inv in Hn. destruct Hn as [_ Hn]. discriminate Hn.
  - change [tColon; Tok TLiteral v'; tEOF] with ([tColon] ++ [Tok TLiteral v'] ++ [tEOF]) in Et.
    change [tColon; Tok TLiteral v; tEOF] with ([tColon] ++ [Tok TLiteral v] ++ [tEOF]) in Et.
    rewrite !app_assoc in Et. apply app_inj_tail in Et. destruct Et as [Et _].
    apply app_inj_tail in Et. destruct Et as [_ Et]. injection Et as <-. exact Hv'.
Qed.

Lemma parse_tmpl_wf isLetter isNumber s t : parse_tmpl isLetter isNumber s = Some t -> wf_t isLetter isNumber t.
Proof.
  intros H. destruct (template_parser_to_grammar isLetter isNumber s t H) as (toks & HT & _ & _ & HA).
  exact (proj1 (Tmpl_AbsT_wf isLetter isNumber toks t HT HA)).
Qed.

(* for any token list related to the template value: when the path is an instance, the compiled edges cover
   the path's tokens, with the same captures *)
Theorem inst_implies_cover_abs :
  forall isLetter isNumber resolves, Sane isLetter isNumber ->
  forall toks t fuel mid es vfs p ptoks cs,
  AbsT toks t -> wf_t isLetter isNumber t ->
  compile resolves fuel mid toks = Ok (es, vfs) ->
  lex_path isLetter isNumber (normalise p) = Ok ptoks ->
  inst isLetter isNumber true t p = Some cs ->
  exists caps, MatchEdges es ptoks caps /\
    cs = filter (fun fc => negb (is_nil (fst fc))) (combine vfs (rev caps)).
Proof.
  intros isLetter isNumber resolves sane toks t fuel mid es vfs p ptoks cs HA Hw Hc Hl Hi.
  destruct (compile_abs resolves toks t _ mid es vfs HA Hc) as [-> ->].
  exact (inst_cover isLetter isNumber sane t p cs ptoks Hw Hl Hi).
Qed.
Print Assumptions inst_implies_cover_abs.

Lemma ptoks_app a b : ptoks (a ++ b) = ptoks a ++ ptoks b.
Proof. induction a as [|x a IH]; [reflexivity|]. cbn [app ptoks]. now rewrite IH. Qed.

Lemma strip_suffix_app suf a : strip_suffix suf (a ++ suf) = Some a.
Proof.
  induction a as [|x a IH].
  - cbn [app]. destruct suf; cbn [strip_suffix]; now rewrite sstr_eqb_refl.
  - cbn [app strip_suffix]. destruct (sstr_eqb (x :: a ++ suf) suf) eqn:E.
    + apply sstr_eqb_eq in E. apply (f_equal (@length N)) in E. cbn [length] in E. rewrite app_length in E. lia.
    + now rewrite IH.
Qed.

Lemma ME_lit_inv k es z caps : MatchEdges (ELit k :: es) z caps ->
  exists t0 t1 rest, z = t0 :: t1 :: rest /\ k = tval t0 ++ tval t1 /\ MatchEdges es rest caps.
Proof. intros H. inversion H; subst. eauto 10. Qed.
Lemma ME_var_inv pat es z caps : MatchEdges (EVar pat :: es) z caps ->
  exists t0 c z' caps', z = t0 :: c ++ z' /\ caps = caps' ++ [spell c] /\ is TSlash t0 = true /\ c ++ z' <> [] /\
    MatchPat pat c z' /\ MatchEdges es z' caps'.
Proof. intros H. inversion H; subst. eauto 12. Qed.
Lemma ME_nil_inv z caps : MatchEdges [] z caps -> (length z <= 1)%nat /\ caps = [].
Proof. intros H. inversion H; subst. auto. Qed.

Section Conv.
Variables isLetter isNumber : N -> bool.
Hypothesis sane : Sane isLetter isNumber.
Notation PathToks := (PathToks isLetter isNumber).
Notation piece_ok := (piece_ok isLetter isNumber).

(* what a pattern leaves behind on a path: path tokens again, or nothing *)
Definition Good (ts : list token) : Prop := ts = [] \/ PathToks ts.

Lemma PathToks_ptoks_app cp z : PathToks (ptoks cp ++ z) -> PathToks z.
Proof.
  induction cp as [|x cp IH]; [auto|]. cbn [ptoks app]. intros H. inversion_clear H as [|w r _ _ Hr|]. auto.
Qed.
Lemma PathToks_not_nil : ~ PathToks [].
Proof. intros H. inversion H. Qed.

Lemma PathToks_slash t zz : PathToks (t :: zz) -> is TSlash t = true ->
  exists w r, t = tSlash /\ zz = Tok TPath w :: r /\ piece_ok w /\ PathToks r.
Proof.
  intros H Ht. inversion H as [|w r Hw Hp Hr|w r Hw Hp Hr]; subst; try discriminate Ht.
  exists w, r. repeat split; auto.
Qed.

Lemma star_split a y w r : Forall nosep a -> at_sep y -> a ++ y = Tok TPath w :: r -> PathToks r ->
  (a = [Tok TPath w] /\ y = r) \/ (a = [Tok TPath w; tEOF] /\ y = [] /\ r = [tEOF]).
Proof.
  intros Ha Hy E Hr. destruct a as [|x a']; cbn [app] in E.
  - subst y. cbn in Hy. destruct Hy; discriminate.
  - injection E as -> E. apply Forall_inv_tail in Ha.
    destruct a' as [|s a'']; cbn [app] in E; [left; now subst|].
    apply Forall_inv in Ha. destruct Ha as [N1 N2].
    destruct Hr as [|v r' Hv Hp Hr'|v r' Hv Hp Hr'].
    + injection E as -> E. apply app_eq_nil in E. destruct E as [-> ->]. right. auto.
    + injection E as -> E. discriminate N1.
    + injection E as -> E. discriminate N2.
Qed.

(* a run without ":" tokens that ends before a ":" token or at the end is whole pieces; the end marker may
   be its last token *)
Lemma noverb_run zz : PathToks zz -> forall a z', zz = a ++ z' -> Forall noverb a -> at_verb z' ->
  exists cp, Forall piece_ok cp /\ (a = ptoks cp \/ (a = ptoks cp ++ [tEOF] /\ z' = [])).
Proof.
  induction 1 as [|w r Hw Hp Hr IH|w r Hw Hp Hr IH]; intros a z' E Ha Hz.
  - destruct a as [|x a]; cbn [app] in E; [subst z'; discriminate Hz|].
    injection E as <- E. symmetry in E. apply app_eq_nil in E. destruct E as [-> ->].
    exists []. split; [constructor|right; auto].
  - destruct a as [|x [|y a]]; cbn [app] in E.
    + subst z'. discriminate Hz.
    + injection E as _ E. subst z'. discriminate Hz.
    + injection E as <- <- E. apply Forall_inv_tail, Forall_inv_tail in Ha.
      destruct (IH a z' E Ha Hz) as (cp & Hcp & Ea). exists (w :: cp). split; [constructor; [split; auto|exact Hcp]|].
      destruct Ea as [->|[-> ->]]; [now left|right; auto].
  - destruct a as [|x a]; cbn [app] in E.
    + exists []. split; [constructor|now left].
    + injection E as <- E. apply Forall_inv in Ha. discriminate Ha.
Qed.

Lemma MatchPat_sl_nil ps z : MatchPat (sl_toks ps) [] z -> ps = [].
Proof.
  destruct ps as [|p ps]; [reflexivity|]. rewrite sl_toks_cons. intros H.
  apply MatchPat_slash_inv in H. destruct H as (t & c2 & E & _). discriminate E.
Qed.

(* the pieces [cp] that the tokens [c] covered by a pattern consist of (the end marker may have gone with
   them), and which match_pat takes for it when the pieces that follow are those of [z'] *)
Definition pat_pieces (ps : list pseg) (c z' : list token) (cp : list sstr) : Prop :=
  Forall piece_ok cp /\
  (c = ptoks cp \/ (c = ptoks cp ++ [tEOF] /\ z' = [])) /\
  (forall verb rest', resid verb rest' z' -> match_pat ps (cp ++ rest') = Some (cp, rest')).

Lemma pat_inv ps : forall c z', MatchPat (sl_toks ps) c z' -> PathToks (c ++ z') -> exists cp, pat_pieces ps c z' cp.
Proof.
  induction ps as [|p ps' IH]; intros c z' M HP.
  - apply MatchPat_nil_inv in M. subst c. exists []. split; [constructor|]. split; [now left|reflexivity].
  - rewrite sl_toks_cons in M. apply MatchPat_slash_inv in M. destruct M as (t & c2 & -> & Ht & M).
    cbn [app] in HP. destruct (PathToks_slash _ _ HP Ht) as (w & r & -> & E & Hw & Hr).
    assert (Step : forall c3, MatchPat (sl_toks ps') c3 z' -> c3 ++ z' = r ->
              (forall rest' cp', match_pat ps' (cp' ++ rest') = Some (cp', rest') ->
                                 match_pat (p :: ps') (w :: cp' ++ rest') = Some (w :: cp', rest')) ->
              exists cp, pat_pieces (p :: ps') (tSlash :: Tok TPath w :: c3) z' cp).
    { intros c3 HM E3 Hmp. rewrite <- E3 in Hr.
      destruct (IH c3 z' HM Hr) as (cp' & A1 & A3 & A4).
      exists (w :: cp'). split; [now constructor|]. split.
      - destruct A3 as [->|[-> ->]]; [now left|right; auto].
      - intros verb rest' Hr'. apply Hmp. exact (A4 verb rest' Hr'). }
    destruct p as [l| |].
    + inversion M as [|? ? ? ? ? Hp|? t1 ? c3 ? Hp Ht1 Hv HM|? a ? c3 ? Hp|? a ? c3 ? Hp]; subst; try discriminate Hp.
      cbn [app] in E. injection E as E1 E2. subst t1. cbn [pseg_tok tval] in Hv. subst l.
      apply (Step c3 HM E2). intros rest' cp' Hm. cbn [match_pat]. now rewrite sstr_eqb_refl, Hm.
    + inversion M as [|? ? ? ? ? Hp|? ? ? ? ? Hp|? a ? c3 ? Hp Ha Hs Hne HM|? a ? c3 ? Hp]; subst; try discriminate Hp.
      rewrite <- app_assoc in E.
      destruct (star_split a (c3 ++ z') w r Ha Hs E Hr) as [[-> E2]|(-> & E2 & ->)].
      * apply (Step c3 HM E2). intros rest' cp' Hm. cbn [match_pat]. now rewrite Hm.
      * apply app_eq_nil in E2. destruct E2 as [-> ->]. apply MatchPat_sl_nil in HM. subst ps'.
        exists [w]. split; [repeat constructor; apply Hw|].
        split; [right; split; reflexivity|]. intros verb rest' _. reflexivity.
    + inversion M as [|? ? ? ? ? Hp|? ? ? ? ? Hp|? a ? c3 ? Hp|? a ? c3 ? Hp Ha Hs Hne HM]; subst; try discriminate Hp.
      destruct ps' as [|q ps''].
      2:{ exfalso. rewrite sl_toks_cons in HM. apply MatchPat_slash_inv in HM. destruct HM as (t' & c4 & -> & Ht' & _).
          cbn in Hs. unfold is in *. destruct (ttyp t'); discriminate. }
      apply MatchPat_nil_inv in HM. subst c3. rewrite app_nil_r in *. cbn [app] in Hs.
      destruct (noverb_run _ HP (tSlash :: a) z' eq_refl (Forall_cons (P := noverb) tSlash eq_refl Ha) Hs) as (cp & Hcp & Hsh).
      exists cp. split; [exact Hcp|]. split; [exact Hsh|].
      intros verb rest' Hr'. rewrite (resid_at_verb _ _ _ Hr' Hs), app_nil_r.
      destruct cp; [destruct Hsh as [Hsh|[Hsh _]]; discriminate Hsh|reflexivity].
Qed.

Lemma pat_residue ps c z' : MatchPat (sl_toks ps) c z' -> PathToks (c ++ z') -> Good z'.
Proof.
  intros M HP. destruct (pat_inv ps c z' M HP) as (cp & _ & [->|[_ ->]] & _); [right|now left].
  exact (PathToks_ptoks_app _ _ HP).
Qed.

Lemma PathToks_short z : PathToks z -> (length z <= 1)%nat -> z = [tEOF].
Proof. intros [|w r _ _ _|w r _ _ _] H; [reflexivity|cbn in H; lia|cbn in H; lia]. Qed.

Section ConvSegs.
Variable verb : option sstr.
Notation tail := (tail_toks verb).
Notation resid := (resid verb).

Definition matched (segs : list tseg) (z : list token) (caps : list str) : Prop :=
  exists rest cs, resid rest z /\ Forall piece_ok rest /\ match_segs segs rest = Some cs /\
    cs = filt (combine (flat_map seg_vf segs) (rev caps)).

Lemma tail_not_nil rest : ptoks rest ++ tail <> [].
Proof. destruct rest; [destruct verb; discriminate|discriminate]. Qed.

Lemma cover_match_segs segs : forall z caps, wf_segs segs -> Good z ->
  MatchEdges (map seg_edge segs ++ verb_edges verb) z caps -> matched segs z caps.
Proof.
  induction segs as [|sg segs IH]; intros z caps Hw HG HM.
  - exists [], []. split; [|split; [constructor|split; reflexivity]].
    cbn [map app] in HM. destruct verb as [v|]; cbn [verb_edges] in HM.
    + left. destruct (ME_lit_inv _ _ _ _ HM) as (t0 & t1 & rest0 & -> & Ek & HM').
      destruct (ME_nil_inv _ _ HM') as [Hl _].
      destruct HG as [E0|HP]; [discriminate E0|].
      inversion HP as [|w r Hw1 Hp Hr|w r Hw1 Hp Hr]; subst; [discriminate Ek|].
      injection Ek as <-. now rewrite (PathToks_short _ Hr Hl).
    + destruct (ME_nil_inv _ _ HM) as [Hl _].
      destruct HG as [->|HP]; [right; auto|left; now rewrite (PathToks_short _ HP Hl)].
  - pose proof (wf_segs_tl _ _ Hw) as Hw'. cbn [map app] in HM.
    destruct (seg_pat sg) as [[ks ps]|] eqn:Esg.
    + destruct (seg_pat_some _ _ _ _ Esg Hw) as (Hps & Ee & Ev & Em). rewrite Ee in HM.
      destruct (ME_var_inv _ _ _ _ HM) as (t0 & c & z' & caps' & -> & -> & Ht0 & Hne & HMP & HM').
      destruct HG as [E0|HP]; [discriminate E0|].
      destruct (PathToks_slash _ _ HP Ht0) as (w & r & -> & Ecz & Hw1 & Hr).
      assert (M : MatchPat (sl_toks ps) (tSlash :: c) z') by (rewrite sl_toks_tl by exact Hps; now apply MP_slash).
      change (tSlash :: c ++ z') with ((tSlash :: c) ++ z') in HP.
      destruct (pat_inv ps _ _ M HP) as (cp & A1 & A3 & A4).
      destruct (IH z' caps' Hw' (pat_residue _ _ _ M HP) HM') as (rest' & cs' & R1 & R2 & R3 & R4).
      assert (Ecap : spell c = join 47 cp).
      { apply join_seps_inj. change (47 :: spell c) with (spell (tSlash :: c)).
        destruct A3 as [->|[-> _]]; [apply spell_ptoks|]. rewrite spell_app, spell_ptoks. apply app_nil_r. }
      exists (cp ++ rest'), (filt [(ks, join 47 cp)] ++ cs').
      cbn [flat_map]. rewrite Ev, Em, (A4 verb rest' R1), R3. cbn [app]. rewrite filt_snoc, Ecap. subst cs'.
      split; [|split; [apply Forall_app; split; assumption|split; reflexivity]].
      change (tSlash :: c ++ z') with ((tSlash :: c) ++ z'). destruct A3 as [E|[E ->]]; rewrite E in *.
      * destruct R1 as [->|(-> & _ & ->)]; [left; now rewrite ptoks_app, app_assoc|].
        exfalso. exact (PathToks_not_nil (PathToks_ptoks_app _ _ HP)).
      * destruct R1 as [E1|(-> & Ev' & _)]; [exfalso; symmetry in E1; exact (tail_not_nil _ E1)|].
        left. rewrite Ev', !app_nil_r. reflexivity.
    + destruct (seg_pat_none _ Esg) as [l ->]. cbn [seg_edge] in HM.
      destruct (ME_lit_inv _ _ _ _ HM) as (t0 & t1 & rest0 & -> & Ek & HM').
      destruct HG as [E0|HP]; [discriminate E0|].
      inversion HP as [|w r Hw1 Hp Hr|w r Hw1 Hp Hr]; subst; [|discriminate Ek].
      injection Ek as Ek. subst w.
      destruct (IH _ _ Hw' (or_intror Hr) HM') as (rest' & cs & R1 & R2 & R3 & R4).
      exists (l :: rest'), cs. split; [|split; [constructor; [split; auto|exact R2]|split]].
      * destruct R1 as [->|(_ & _ & ->)]; [now left|]. exfalso. exact (PathToks_not_nil Hr).
      * cbn [match_segs match_pat]. now rewrite sstr_eqb_refl.
      * exact R4.
Qed.
End ConvSegs.

Lemma piece_no_slash x : piece_ok x -> ~ In 47 x.
Proof.
  intros [_ H] Hin. rewrite forallb_forall in H. specialize (H 47 Hin).
  rewrite (path_sep_stops isLetter isNumber sane 47 TSlash eq_refl) in H. discriminate.
Qed.
Lemma pieces_checks rest : Forall piece_ok rest ->
  forallb (fun x => negb (is_nil x)) rest = true /\ forallb (forallb (s_path isLetter isNumber)) rest = true.
Proof.
  induction 1 as [|x r [Hx1 Hx2] H [IH1 IH2]]; [split; reflexivity|]. cbn [forallb]. rewrite IH1, IH2. split.
  - destruct x; [contradiction|reflexivity].
  - rewrite andb_true_r. rewrite forallb_forall in *. intros y Hy. rewrite s_path_eq. now apply Hx2.
Qed.

Lemma cover_inst t p caps ptoks0 : wf_t isLetter isNumber t -> t_segs t <> [] ->
  lex_path isLetter isNumber (normalise p) = Ok ptoks0 -> MatchEdges (edges_of t) ptoks0 caps ->
  exists cs, inst isLetter isNumber true t p = Some cs /\ cs = filt (combine (vfs_of t) (rev caps)).
Proof.
  intros [Hw Hv] Hsn Hl HM.
  destruct (lex_path_sound _ _ _ _ Hl) as (HP0 & Hs0 & _).
  destruct (cover_match_segs (t_verb t) (t_segs t) ptoks0 caps Hw (or_intror HP0) HM) as (rest & cs & R1 & R2 & R3 & R4).
  destruct R1 as [E|(_ & _ & E)]; [|subst ptoks0; exfalso; exact (PathToks_not_nil HP0)].
  destruct rest as [|x r]; [exfalso; apply Hsn; exact (match_segs_nil _ _ Hw R3)|].
  exists cs. split; [|exact R4]. rewrite inst_eq, <- Hs0, E, spell_app, spell_ptoks, <- join_seps. cbn [app].
  change (47 =? 47) with true. cbv iota.
  assert (Esp : (match t_verb t with Some v => strip_suffix (58 :: v) (join 47 (x :: r) ++ spell (tail_toks (t_verb t))) | None => Some (join 47 (x :: r) ++ spell (tail_toks (t_verb t))) end) = Some (join 47 (x :: r))).
  { destruct (t_verb t) as [v|]; cbn [tail_toks].
    - change (spell [tColon; Tok TPath v; tEOF]) with (58 :: v ++ [] ++ []). rewrite !app_nil_r. apply strip_suffix_app.
    - change (spell [tEOF]) with (@nil N). now rewrite app_nil_r. }
  rewrite Esp. cbv zeta.
  rewrite split_on_of_join; [|discriminate|eapply Forall_impl; [|exact R2]; intros a Ha; now apply piece_no_slash].
  destruct (pieces_checks _ R2) as [C1 C2]. rewrite C1, C2. exact R3.
Qed.

End Conv.

(* the token-level covering and the string-level instance relation agree on every request path the
   lexer accepts, captures included *)
Theorem inst_iff_cover_abs :
  forall isLetter isNumber resolves, Sane isLetter isNumber ->
  forall toks t fuel mid es vfs p ptoks,
  Tmpl isLetter isNumber toks -> AbsT toks t ->
  compile resolves fuel mid toks = Ok (es, vfs) ->
  lex_path isLetter isNumber (normalise p) = Ok ptoks ->
  (forall cs, inst isLetter isNumber true t p = Some cs ->
     exists caps, MatchEdges es ptoks caps /\ cs = filter (fun fc => negb (is_nil (fst fc))) (combine vfs (rev caps))) /\
  (forall caps, MatchEdges es ptoks caps ->
     exists cs, inst isLetter isNumber true t p = Some cs /\ cs = filter (fun fc => negb (is_nil (fst fc))) (combine vfs (rev caps))).
Proof.
  intros isLetter isNumber resolves sane toks t fuel mid es vfs p ptoks HT HA Hc Hl.
  destruct (Tmpl_AbsT_wf isLetter isNumber toks t HT HA) as [Hw Hn].
  destruct (compile_abs resolves toks t _ mid es vfs HA Hc) as [-> ->]. split.
  - intros cs Hi. exact (inst_cover isLetter isNumber sane t p cs ptoks Hw Hl Hi).
  - intros caps HM. exact (cover_inst isLetter isNumber sane t p caps ptoks Hw Hn Hl HM).
Qed.
Print Assumptions inst_iff_cover_abs.

(* for a registered binding and the template the oracle reads from its text. The first half is what the
   harness needs: when the oracle says "the path is an instance of this rule's template, with these field
   values", the edges larking compiled from the rule cover the path's tokens -- the hypothesis of
   C02_complete -- with the same captures. [cs] lists (field path, text) for the template's variables in
   template order; [caps] has one text per variable edge, deepest first, bare "*" / "**" segments included
   (their field path is [], they are filtered out). *)
Theorem inst_iff_cover :
  forall isLetter isNumber resolves, Sane isLetter isNumber ->
  forall mid b es vfs t p ptoks,
  compiled isLetter isNumber resolves mid b es vfs ->
  parse_tmpl isLetter isNumber (b_tmpl b) = Some t ->
  lex_path isLetter isNumber (normalise p) = Ok ptoks ->
  (forall cs, inst isLetter isNumber true t p = Some cs ->
     exists caps, MatchEdges es ptoks caps /\ cs = filt (combine vfs (rev caps))) /\
  (forall caps, MatchEdges es ptoks caps ->
     exists cs, inst isLetter isNumber true t p = Some cs /\ cs = filt (combine vfs (rev caps))).
Proof.
  intros isLetter isNumber resolves sane mid b es vfs t p ptoks (toks & Hlex & Hc) Hp Hl.
  exact (inst_iff_cover_abs isLetter isNumber resolves sane toks t _ mid es vfs p ptoks
           (proj1 (lex_template_sound _ _ _ _ Hlex)) (template_oracle_lexer_related isLetter isNumber sane _ _ _ Hp Hlex) Hc Hl).
Qed.
Print Assumptions inst_iff_cover.

Corollary cover_iff_inst :
  forall isLetter isNumber resolves, Sane isLetter isNumber ->
  forall mid b es vfs t p ptoks,
  compiled isLetter isNumber resolves mid b es vfs ->
  parse_tmpl isLetter isNumber (b_tmpl b) = Some t ->
  lex_path isLetter isNumber (normalise p) = Ok ptoks ->
  ((exists caps, MatchEdges es ptoks caps) <-> (exists cs, inst isLetter isNumber true t p = Some cs)).
Proof.
  intros isLetter isNumber resolves sane mid b es vfs t p ptoks Hc Hp Hl.
  destruct (inst_iff_cover isLetter isNumber resolves sane mid b es vfs t p ptoks Hc Hp Hl) as [A B]. split.
  - intros [caps HM]. destruct (B caps HM) as (cs & Hi & _). eauto.
  - intros [cs Hi]. destruct (A cs Hi) as (caps & HM & _). eauto.
Qed.
Print Assumptions cover_iff_inst.

Lemma MatchEdges_caps es toks caps : MatchEdges es toks caps -> length caps = nvars es.
Proof.
  induction 1 as [toks Hl|t0 t1 rest es caps HM IH|pat t0 c z es caps Ht Hne HMP HM IH]; cbn [nvars length]; auto.
  rewrite app_length. cbn [length]. lia.
Qed.

Definition asciiL (r : N) : bool := ((65 <=? r) && (r <=? 90)) || ((97 <=? r) && (r <=? 122)).
Definition asciiN (r : N) : bool := (48 <=? r) && (r <=? 57).

(* the captures are related through the field paths, not as [map snd cs = rev caps]: a bare "*" or
   "**" segment is a variable edge with a capture for larking (field path []), while [inst] reports
   values for named variables only. Template "/*", path "/b". *)
Example bare_wildcard_capture :
  let t := {| t_segs := [TPlain PStar]; t_verb := None |} in
  parse_tmpl asciiL asciiN [47; 42] = Some t /\
  inst asciiL asciiN true t [47; 98] = Some [] /\
  lex_path asciiL asciiN (normalise [47; 98]) = Ok [tSlash; Tok TPath [98]; tEOF] /\
  MatchEdges (edges_of t) [tSlash; Tok TPath [98]; tEOF] [[98]].
Proof.
  cbv zeta. split; [vm_compute; reflexivity|]. split; [vm_compute; reflexivity|]. split; [vm_compute; reflexivity|].
  apply (ME_var [tStar] tSlash [Tok TPath [98]; tEOF] [] [] []); [reflexivity|discriminate| |apply ME_end; cbn; lia].
  apply MP_star1; [reflexivity|repeat constructor|exact I|discriminate].
Qed.

(* [inst] has no counterpart of the lexer's cap of 64 tokens on the request path: a path of 32 pieces
   is an instance of "/**" for the oracle, and is refused by lex_path (so by larking: NotFound).
   The equivalence above is stated, like C01/C02, for the paths lex_path accepts. *)
Example inst_has_no_token_cap :
  let t := {| t_segs := [TPlain PStarStar]; t_verb := None |} in
  let p := concat (repeat [47; 97] 32) in
  parse_tmpl asciiL asciiN [47; 42; 42] = Some t /\
  (exists cs, inst asciiL asciiN true t p = Some cs) /\
  lex_path asciiL asciiN (normalise p) = Err EInvalid.
Proof. cbv zeta. split; [vm_compute; reflexivity|]. split; [eexists; vm_compute; reflexivity|vm_compute; reflexivity]. Qed.

(* lex_path accepts exactly the separator/text sequences of at most 64 tokens *)
Theorem lex_path_complete isLetter isNumber : Sane isLetter isNumber ->
  forall toks, PathToks isLetter isNumber toks -> (length toks <= 64)%nat ->
  lex_path isLetter isNumber (spell toks) = Ok toks.
Proof.
  intros sane toks HP Hl. unfold lex_path.
  rewrite (lex_path_loop_complete isLetter isNumber sane toks HP);
    [|pose proof (PathToks_length isLetter isNumber toks HP); lia|cbn [length]; lia].
  cbn [bind Lexer.toks]. now rewrite app_nil_r, rev_involutive.
Qed.
Print Assumptions lex_path_complete.

(* the number of tokens of a path is determined by its separators *)
Definition is_sep (r : N) : bool := (r =? 47) || (r =? 58).
Definition path_tokens (p : str) : nat := (2 * length (filter is_sep p) + 1)%nat.

Lemma PathToks_count isLetter isNumber : Sane isLetter isNumber ->
  forall toks, PathToks isLetter isNumber toks -> length toks = path_tokens (spell toks).
Proof.
  intros sane toks H. unfold path_tokens.
  assert (Hv : forall v, forallb (is_path isLetter isNumber) v = true -> filter is_sep v = []).
  { induction v as [|x v IHv]; [reflexivity|]. cbn [forallb filter]. intros Hx. apply andb_true_iff in Hx. destruct Hx as [Hx Hv].
    assert (Es : is_sep x = false).
    { unfold is_sep. pose proof (path_sep_stops isLetter isNumber sane x) as Hs. unfold path_sep in Hs.
      destruct (x =? 47); [now rewrite (Hs _ eq_refl) in Hx|]. destruct (x =? 58); [now rewrite (Hs _ eq_refl) in Hx|reflexivity]. }
    rewrite Es. now apply IHv. }
  induction H as [|k r v rest Hk _ Hp _ IH] using PathToks_sep_ind; [reflexivity|].
  assert (Er : is_sep r = true) by (unfold path_sep in Hk; unfold is_sep; destruct (r =? 47); [reflexivity|]; now destruct (r =? 58)).
  change (spell (Tok k [r] :: Tok TPath v :: rest)) with (r :: v ++ spell rest).
  cbn [filter]. rewrite Er, filter_app, (Hv v Hp). cbn [app length]. lia.
Qed.

(* an instance (strict) of at most 64 tokens -- 31 pieces, 30 with a verb -- is a path lex_path accepts; beyond
   that the oracle still says "instance" while larking answers NotFound (inst_has_no_token_cap) *)
Theorem inst_lexes :
  forall isLetter isNumber, Sane isLetter isNumber ->
  forall t p cs, wf_t isLetter isNumber t -> inst isLetter isNumber true t p = Some cs ->
  (path_tokens (normalise p) <= 64)%nat ->
  exists ptoks, lex_path isLetter isNumber (normalise p) = Ok ptoks.
Proof.
  intros isLetter isNumber sane t p cs Hw Hi Hn.
  destruct (inst_pieces isLetter isNumber t p cs Hw Hi) as (pieces & HP & Hs & _).
  exists (ptoks pieces ++ tail_toks (t_verb t)). rewrite <- Hs.
  apply (lex_path_complete isLetter isNumber sane); [exact HP|].
  rewrite (PathToks_count isLetter isNumber sane _ HP), Hs. exact Hn.
Qed.
Print Assumptions inst_lexes.

(* with C02: a registered rule that the oracle says matches a request of at most 64 path tokens is served *)
Corollary oracle_match_is_served_bounded :
  forall isLetter isNumber resolves okconv, Sane isLetter isNumber -> (forall fp t, okconv fp t = true) ->
  forall L root verb p mid b es vfs t cs,
  Inv isLetter isNumber resolves L root -> In (mid, b) L -> covers_verb (b_verb b) verb ->
  compiled isLetter isNumber resolves mid b es vfs ->
  parse_tmpl isLetter isNumber (b_tmpl b) = Some t ->
  inst isLetter isNumber true t p = Some cs ->
  (path_tokens (normalise p) <= 64)%nat ->
  exists r, route okconv isLetter isNumber root verb p = Ok r.
Proof.
  intros isLetter isNumber resolves okconv sane conv L root verb p mid b es vfs t cs HI Hin Hcov Hc Hp Hi Hn.
  destruct (inst_lexes isLetter isNumber sane t p cs (parse_tmpl_wf _ _ _ _ Hp) Hi Hn) as [ptoks El].
  destruct (proj1 (inst_iff_cover isLetter isNumber resolves sane mid b es vfs t p ptoks Hc Hp El) cs Hi) as (caps & HM & _).
  exact (dispatch_complete isLetter isNumber resolves okconv sane conv L root verb p mid b es vfs ptoks caps HI Hin Hcov Hc El HM).
Qed.
Print Assumptions oracle_match_is_served_bounded.
