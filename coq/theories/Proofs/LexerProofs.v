(* The recursive-descent template lexer (Model/Lexer.v) accepts exactly the token grammar of
   Spec/Grammar.v: soundness (every accepted template is a derivation, its tokens spell the input,
   at most 64 of them) and completeness (every derivation of at most 64 tokens is accepted); on any input
   it answers or refuses, without panic and within its fuel. The same for request paths (lex_path). *)
From Larking Require Import Base.GoSem Model.Lexer Spec.Grammar.
Local Open Scope N_scope.

Lemma spell_app a b : spell (a ++ b) = spell a ++ spell b.
Proof. unfold spell. now rewrite map_app, concat_app. Qed.
Lemma spell_cons t ts : spell (t :: ts) = tval t ++ spell ts.
Proof. reflexivity. Qed.
Lemma spell_one k v : spell [Tok k v] = v.
Proof. apply app_nil_r. Qed.

(* the spelling and the length of the productions of Spec/Grammar.v *)
Lemma spell_sep ts rest : spell (ts ++ tSlash :: rest) = spell ts ++ 47 :: spell rest.
Proof. apply spell_app. Qed.
Lemma spell_var fp : spell (tOpen :: fp ++ [tClose]) = 123 :: spell fp ++ [125].
Proof. rewrite spell_cons, spell_app. reflexivity. Qed.
Lemma spell_varpat fp ps :
  spell (tOpen :: fp ++ tEq :: ps ++ [tClose]) = 123 :: (spell fp ++ 61 :: spell ps) ++ [125].
Proof. rewrite spell_cons, spell_app, spell_cons, spell_app, <- app_assoc. reflexivity. Qed.
Lemma spell_tmpl_plain ss : spell (tSlash :: ss ++ [tEOF]) = 47 :: spell ss.
Proof. rewrite spell_cons, spell_app. apply (f_equal (cons 47)), app_nil_r. Qed.
Lemma spell_tmpl_verb ss v : spell (tSlash :: ss ++ [tColon; Tok TLiteral v; tEOF]) = 47 :: spell ss ++ 58 :: v.
Proof. rewrite spell_cons, spell_app. cbn. now rewrite !app_nil_r. Qed.
Lemma length_tmpl (ss tl : list token) : length (tSlash :: ss ++ tl) = (length ss + S (length tl))%nat.
Proof. cbn [length]. rewrite app_length. lia. Qed.
Lemma length_var (fp : list token) : length (tOpen :: fp ++ [tClose]) = (length fp + 2)%nat.
Proof. cbn [length]. rewrite app_length. cbn [length]. lia. Qed.
Lemma length_varpat (fp ps : list token) :
  length (tOpen :: fp ++ tEq :: ps ++ [tClose]) = (length fp + length ps + 3)%nat.
Proof. cbn [length]. rewrite app_length. cbn [length]. rewrite app_length. cbn [length]. lia. Qed.

Section LexerProofs.
Variables isLetter isNumber : N -> bool.
Notation is_ident := (is_ident isLetter isNumber).
Notation is_literal := (is_literal isLetter isNumber).
Notation PSeg := (PSeg isLetter isNumber).
Notation PSegs := (PSegs isLetter isNumber).
Notation Seg := (Seg isLetter isNumber).
Notation Segs := (Segs isLetter isNumber).
Notation FieldPath := (FieldPath isLetter isNumber).
Notation Tmpl := (Tmpl isLetter isNumber).

Definition stops (p : N -> bool) (rest : str) : Prop := match rest with [] => True | x :: _ => p x = false end.

Lemma span_spec p l v rest : span p l = (v, rest) -> l = v ++ rest /\ forallb p v = true /\ stops p rest.
Proof.
  revert v rest. induction l as [|x l IH]; intros v rest H; cbn in H.
  - inversion H; subst. cbn. auto.
  - destruct (p x) eqn:Ex.
    + destruct (span p l) as [a b] eqn:Es. inversion H; subst.
      destruct (IH a rest eq_refl) as (E1 & E2 & E3). subst l. cbn. rewrite Ex, E2. auto.
    + inversion H; subst. cbn. auto.
Qed.
Lemma span_app p v rest : forallb p v = true -> stops p rest -> span p (v ++ rest) = (v, rest).
Proof.
  intros Hv Hr. induction v as [|x v IH]; cbn.
  - destruct rest as [|y r]; cbn in *; auto. now rewrite Hr.
  - cbn in Hv. apply andb_true_iff in Hv. destruct Hv as [Hx Hv]. rewrite Hx, (IH Hv). reflexivity.
Qed.

Lemma hd_is_some c l r : hd_is c l = Some r <-> l = c :: r.
Proof.
  unfold hd_is. destruct l as [|x l]; [split; discriminate|].
  destruct (N.eqb_spec x c) as [->|Hne]; split; intros H; inversion H; subst; auto. contradiction.
Qed.
Lemma hd_is_none c l : hd_is c l = None <-> (forall r, l <> c :: r).
Proof.
  unfold hd_is. destruct l as [|x l]; [split; [intros _ r; discriminate|auto]|].
  destruct (N.eqb_spec x c) as [->|Hne]; split; intros H; auto.
  - discriminate.
  - exfalso. now apply (H l).
  - intros r E. inversion E. contradiction.
Qed.

Definition Ext (s : lst) (new : list token) (s' : lst) : Prop :=
  toks s' = rev new ++ toks s /\ inp s = spell new ++ inp s'.

Lemma Ext_trans s a s1 b s2 : Ext s a s1 -> Ext s1 b s2 -> Ext s (a ++ b) s2.
Proof.
  intros [A1 A2] [B1 B2]. split.
  - rewrite B1, A1, rev_app_distr, app_assoc. reflexivity.
  - rewrite A2, B2, spell_app, app_assoc. reflexivity.
Qed.

(* totality: the lexer neither panics nor runs out of fuel *)
Definition benign {A} (x : outcome A) : Prop := match x with Ok _ | Err _ => True | _ => False end.
Definition len (s : lst) : nat := length (inp s).

(* Soundness and totality are one descent: for each lexing function, [ok_all] of what it appends to the
   state (Ext) -- so it is benign as well -- and of the unread input getting shorter, which is what the
   callers' fuel is measured against. ([lia] is handed the length facts alone: with the states and their
   Ext facts in view it is many times slower.) *)

(* [emit] refuses only at the token limit *)
Lemma emit_spec k v rest s : inp s = v ++ rest ->
  ok_all (fun s' => Ext s [Tok k v] s' /\ last s' = last s /\ inp s' = rest /\ (length (toks s') <= 64)%nat)
         (emit k v rest s).
Proof.
  intros Hi. unfold emit, token_cap. destruct (Nat.leb_spec 64 (length (toks s))) as [|Hl]; [exact I|].
  unfold Ext. cbn. rewrite app_nil_r. repeat split; auto.
Qed.
(* the next rune is [c], and becomes a token *)
Lemma punct c k s rest : hd_is c (inp s) = Some rest ->
  ok_all (fun s' => Ext s [Tok k [c]] s' /\ last s' = last s /\ len s = S (len s')) (emit k [c] rest s).
Proof.
  intros H. apply hd_is_some in H. apply (ok_all_impl _ _ _ (emit_spec k [c] rest s H)).
  intros s' (A & B & C & _). unfold len. rewrite H, C. auto.
Qed.
Lemma emit_do k v rest i ts lf :
  (length ts < 64)%nat -> emit k v rest (Lst i ts lf) = Ok (Lst rest (Tok k v :: ts) lf).
Proof. intros H. unfold emit, token_cap. cbn [toks last]. apply Nat.leb_gt in H. now rewrite H. Qed.

Lemma lex_run_spec k p s :
  ok_all (fun s' => exists v, Ext s [Tok k v] s' /\ v <> [] /\ forallb p v = true /\ last s' = last s /\
                               (len s' < len s)%nat) (lex_run k p s).
Proof using. clear isLetter isNumber.
  unfold lex_run. destruct (span p (inp s)) as [v rest] eqn:Es.
  destruct (span_spec _ _ _ _ Es) as (E1 & E2 & _).
  destruct v as [|x v]; [exact I|]. apply (ok_all_impl _ _ _ (emit_spec _ _ _ _ E1)).
  intros s' (A & B & C & _). exists (x :: v). split; [exact A|]. split; [discriminate|]. split; [exact E2|]. split; [exact B|].
  unfold len. rewrite E1, C, app_length. cbn [length]. lia.
Qed.
Lemma lex_run_complete k p v rest ts lf :
  v <> [] -> forallb p v = true -> stops p rest -> (length ts < 64)%nat ->
  lex_run k p (Lst (v ++ rest) ts lf) = Ok (Lst rest (Tok k v :: ts) lf).
Proof.
  intros Hv Hp Hs Hl. unfold lex_run. cbn [inp]. rewrite (span_app _ _ _ Hp Hs).
  destruct v; [contradiction|]. cbn [is_nil]. now rewrite emit_do.
Qed.

(* a field path as its first identifier and the ("." identifier) pairs the loop reads *)
Inductive DotTail : list token -> Prop :=
| DT_nil : DotTail []
| DT_cons v rest : ident_ok isLetter isNumber v = true -> DotTail rest -> DotTail (tDot :: Tok TIdent v :: rest).
Lemma tail_of_FieldPath fp : FieldPath fp -> exists v tail, fp = Tok TIdent v :: tail /\ ident_ok isLetter isNumber v = true /\ DotTail tail.
Proof.
  induction 1 as [v Hv|v rest Hv Hf (w & tail & -> & Hw & Ht)].
  - exists v, []. repeat split; auto. constructor.
  - exists v, (tDot :: Tok TIdent w :: tail). repeat split; auto. now constructor.
Qed.

Lemma ident_ok_of v : v <> [] -> forallb is_ident v = true -> ident_ok isLetter isNumber v = true.
Proof. intros Hv Hp. unfold ident_ok. rewrite Hp. destruct v; [contradiction|reflexivity]. Qed.

Lemma lex_field_path_spec fuel : forall s, (len s <= fuel)%nat ->
  ok_all (fun s' => exists fp, Ext s fp s' /\ FieldPath fp /\ last s' = last s /\ (len s' < len s)%nat)
         (lex_field_path isLetter isNumber fuel s).
Proof.
  induction fuel as [|f IH]; intros s Hf;
    apply (ok_all_bind _ _ _ _ (lex_run_spec TIdent is_ident s)); intros s1 (v & A1 & Hv & Hp & B1 & L1); [lia|].
  pose proof (ident_ok_of v Hv Hp) as Hi. cbn [lex_field_path_loop]. destruct (hd_is 46 (inp s1)) as [rest|] eqn:Eh.
  - apply (ok_all_bind _ _ _ _ (punct _ TDot _ _ Eh)). intros s2 (A2 & B2 & L2).
    apply (ok_all_impl _ _ _ (IH s2 ltac:(clear - Hf L1 L2; lia))). intros s' (fp & A3 & Hfp & B3 & L3).
    exists ([Tok TIdent v] ++ [tDot] ++ fp). split; [exact (Ext_trans _ _ _ _ _ A1 (Ext_trans _ _ _ _ _ A2 A3))|].
    split; [now apply FP_cons|]. split; [congruence|clear - L1 L2 L3; lia].
  - exists [Tok TIdent v]. split; [exact A1|]. split; [now constructor|auto].
Qed.

(* a segment lexer, on states with no "**" behind them and at most [n] unread runes: what it appends is a
   segment of the grammar [SG], flagged when it ends in "**", and it consumes input *)
Definition SegSpec (SG : list token -> bool -> Prop) (n : nat) (f : lst -> outcome lst) : Prop :=
  forall s, last s = false -> (len s <= n)%nat ->
  ok_all (fun s' => exists new, Ext s new s' /\ SG new (last s') /\ (len s' < len s)%nat) (f s).

Lemma lex_segment_spec (SG : list token -> bool -> Prop) n lexvar :
  (forall ts b, PSeg ts b -> SG ts b) ->
  (forall lv, lexvar = Some lv -> SegSpec SG n lv) ->
  SegSpec SG n (lex_segment isLetter isNumber lexvar).
Proof.
  intros Hsub Hlv s Hl Hn. unfold lex_segment.
  destruct (inp s) as [|r rest] eqn:Ei; [exact I|].
  assert (Hs : forall s', inp s' = rest -> (len s' < len s)%nat) by (intros s' E; unfold len; rewrite Ei, E; cbn [length]; lia).
  destruct (isLetter r) eqn:El.
  - apply (ok_all_impl _ _ _ (lex_run_spec _ _ s)). intros s' (v & A & Hv & Hp & B & L).
    exists [Tok TLiteral v]. split; [exact A|]. split; [|exact L]. rewrite B, Hl.
    apply Hsub. constructor. unfold lit_ok.
    pose proof (proj2 A) as E. rewrite Ei, spell_one in E.
    destruct v as [|x v]; [contradiction|]. injection E as <- _. now rewrite El, Hp.
  - destruct (N.eqb_spec r 42) as [->|Hne42].
    + destruct (hd_is 42 rest) as [rest'|] eqn:Eh.
      * apply hd_is_some in Eh. subst rest.
        apply (ok_all_bind _ _ _ _ (emit_spec TStarStar [42; 42] rest' s Ei)). intros s1 ([A1 A2] & _ & C & _).
        exists [tStarStar]. split; [split; assumption|]. split; [apply Hsub; constructor|].
        unfold len. cbn [inp]. rewrite Ei, C. cbn [length]. lia.
      * apply (ok_all_impl _ _ _ (emit_spec TStar [42] rest s Ei)). intros s' (A & B & C & _).
        exists [tStar]. split; [exact A|]. split; [rewrite B, Hl; apply Hsub; constructor|exact (Hs s' C)].
    + destruct (N.eqb_spec r 123) as [->|Hne]; [|exact I].
      destruct lexvar as [lv|]; [|exact I].
      exact (Hlv lv eq_refl s Hl Hn).
Qed.

Lemma lex_segments_spec (SG : list token -> bool -> Prop) n lexvar :
  SegSpec SG n (lex_segment isLetter isNumber lexvar) ->
  forall fuel s, last s = false -> (len s <= n)%nat -> (len s < fuel)%nat ->
  ok_all (fun s' => exists new, Ext s new s' /\ SegsG SG new (last s') /\ (len s' < len s)%nat)
         (lex_segments isLetter isNumber fuel lexvar s).
Proof.
  intros Hseg. induction fuel as [|f IH]; intros s Hl Hn Hf; [lia|]. cbn [lex_segments].
  apply (ok_all_bind _ _ _ _ (Hseg s Hl Hn)). intros s1 (new1 & A1 & G1 & L1).
  destruct (hd_is 47 (inp s1)) as [rest|] eqn:Eh.
  - destruct (last s1) eqn:Els; [exact I|].
    apply (ok_all_bind _ _ _ _ (punct _ TSlash _ _ Eh)). intros s2 (A2 & B2 & L2).
    apply (ok_all_impl _ _ _ (IH s2 ltac:(congruence) ltac:(clear - Hn L1 L2; lia) ltac:(clear - Hf L1 L2; lia))). intros s' (new2 & A3 & G3 & L3).
    exists (new1 ++ tSlash :: new2).
    split; [exact (Ext_trans _ _ _ _ _ A1 (Ext_trans _ [tSlash] _ _ _ A2 A3))|]. split; [now apply Ss_cons|clear - L1 L2 L3; lia].
  - exists new1. split; [exact A1|]. split; [now apply Ss_one|exact L1].
Qed.

Lemma lex_variable_spec fuel : SegSpec Seg fuel (lex_variable isLetter isNumber fuel).
Proof.
  intros s Hl Hf. unfold lex_variable.
  destruct (hd_is 123 (inp s)) as [rest|] eqn:Eh; [|exact I].
  apply (ok_all_bind _ _ _ _ (punct _ TVarStart _ _ Eh)). intros s1 (A1 & B1 & L1).
  apply (ok_all_bind _ _ _ _ (lex_field_path_spec fuel s1 ltac:(clear - Hf L1; lia))). intros s2 (fp & A2 & Hfp & B2 & L2).
  destruct (hd_is 61 (inp s2)) as [rest2|] eqn:Eh2.
  - apply (ok_all_bind _ _ _ _ (punct _ TEqual _ _ Eh2)). intros s3 (A3 & B3 & L3).
    assert (HS : SegSpec PSeg fuel (lex_segment isLetter isNumber None)).
    { apply lex_segment_spec; auto. intros lv E; discriminate. }
    apply (ok_all_bind _ _ _ _ (lex_segments_spec PSeg fuel None HS fuel s3 ltac:(congruence) ltac:(clear - Hf L1 L2 L3; lia) ltac:(clear - Hf L1 L2 L3; lia))).
    intros s4 (ps & A4 & G4 & L4).
    destruct (hd_is 125 (inp s4)) as [rest4|] eqn:Eh4; [|exact I].
    apply (ok_all_impl _ _ _ (punct _ TVarEnd _ _ Eh4)). intros s' (A5 & B5 & L5).
    exists (tOpen :: fp ++ tEq :: ps ++ [tClose]).
    split; [|split; [rewrite B5; now apply S_varpat|clear - L1 L2 L3 L4 L5; lia]].
    exact (Ext_trans _ [tOpen] _ _ _ A1 (Ext_trans _ _ _ _ _ A2 (Ext_trans _ [tEq] _ _ _ A3 (Ext_trans _ _ _ _ _ A4 A5)))).
  - destruct (hd_is 125 (inp s2)) as [rest2|] eqn:Eh3; [|exact I].
    apply (ok_all_impl _ _ _ (punct _ TVarEnd _ _ Eh3)). intros s' (A5 & B5 & L5).
    exists (tOpen :: fp ++ [tClose]).
    split; [|split; [replace (last s') with false by congruence; now apply S_var|clear - L1 L2 L5; lia]].
    exact (Ext_trans _ [tOpen] _ _ _ A1 (Ext_trans _ _ _ _ _ A2 A5)).
Qed.

Lemma lex_template_st_spec t :
  ok_all (fun sf => Tmpl (rev (toks sf)) /\ spell (rev (toks sf)) = t /\ (length (toks sf) <= 64)%nat)
         (lex_template_st isLetter isNumber t).
Proof.
  unfold lex_template_st. destruct (hd_is 47 t) as [rest|] eqn:Eh; [|exact I].
  set (s0 := Lst t [] false).
  apply (ok_all_bind _ _ _ _ (punct _ TSlash s0 _ Eh)). intros s1 (A1 & B1 & L1). change (len s0) with (length t) in L1.
  assert (HS : SegSpec Seg (S (length t)) (lex_segment isLetter isNumber (Some (lex_variable isLetter isNumber (S (length t)))))).
  { apply lex_segment_spec; [intros; now apply S_plain|]. intros lv [= <-]. apply lex_variable_spec. }
  apply (ok_all_bind _ _ _ _ (lex_segments_spec Seg _ _ HS (S (length t)) s1 B1 ltac:(clear - L1; lia) ltac:(clear - L1; lia))).
  intros s2 (ss & A2 & G2 & _).
  (* the tokens emitted from the start to the end of the input are the answer *)
  assert (Fin : forall new sf, Tmpl new -> Ext s0 new sf -> inp sf = [] -> (length (toks sf) <= 64)%nat ->
                 Tmpl (rev (toks sf)) /\ spell (rev (toks sf)) = t /\ (length (toks sf) <= 64)%nat).
  { intros new sf HT [F1 F2] Hi Hl. cbn in F1, F2. rewrite app_nil_r in F1. rewrite Hi, app_nil_r in F2.
    rewrite F1, rev_involutive. rewrite F1 in Hl. auto. }
  destruct (hd_is 58 (inp s2)) as [rest2|] eqn:Eh2.
  - apply (ok_all_bind _ _ _ _ (punct _ TVerb _ _ Eh2)). intros s3 (A3 & _). unfold lex_verb.
    apply (ok_all_bind _ _ _ _ (lex_run_spec TLiteral is_literal s3)). intros s4 (v & A4 & Hv & Hp & _).
    destruct (inp s4) as [|x r4] eqn:Ei4; [|exact I].
    apply (ok_all_impl _ _ _ (emit_spec TEOF [] [] s4 Ei4)). intros sf (A5 & _ & C5 & D5).
    apply (Fin (tSlash :: ss ++ [tColon; Tok TLiteral v; tEOF])); [| |exact C5|exact D5].
    + apply (T_verb _ _ ss _ v G2). unfold verb_ok. rewrite Hp. destruct v; [contradiction|reflexivity].
    + exact (Ext_trans _ [tSlash] _ _ _ A1 (Ext_trans _ _ _ _ _ A2 (Ext_trans _ [tColon] _ _ _ A3 (Ext_trans _ [_] _ _ _ A4 A5)))).
  - destruct (inp s2) as [|x r2] eqn:En; [|exact I].
    apply (ok_all_impl _ _ _ (emit_spec TEOF [] [] s2 En)). intros sf (A5 & _ & C5 & D5).
    apply (Fin (tSlash :: ss ++ [tEOF])); [exact (T_plain _ _ ss _ G2)| |exact C5|exact D5].
    exact (Ext_trans _ [tSlash] _ _ _ A1 (Ext_trans _ _ _ _ _ A2 A5)).
Qed.

Theorem lex_template_sound t toks0 :
  lex_template isLetter isNumber t = Ok toks0 ->
  Tmpl toks0 /\ spell toks0 = t /\ (length toks0 <= 64)%nat.
Proof.
  unfold lex_template. intros H. apply bind_ok in H. destruct H as (sf & E & [= <-]).
  pose proof (ok_all_ok _ _ _ (lex_template_st_spec t) E) as Sp. now rewrite rev_length.
Qed.
Theorem lex_template_benign t : benign (lex_template isLetter isNumber t).
Proof. apply (ok_all_bind _ (fun _ => True) _ _ (lex_template_st_spec t)). intros; exact I. Qed.

(* request paths: separator, text, separator, text, ..., end *)
Inductive PathToks : list token -> Prop :=
| PT_end : PathToks [tEOF]
| PT_slash v rest : v <> [] -> forallb (is_path isLetter isNumber) v = true -> PathToks rest ->
    PathToks (tSlash :: Tok TPath v :: rest)
| PT_colon v rest : v <> [] -> forallb (is_path isLetter isNumber) v = true -> PathToks rest ->
    PathToks (tColon :: Tok TPath v :: rest).

(* the two separators of lex_path_loop and of PathToks, as one case *)
Definition path_sep (r : N) : option tk := if r =? 47 then Some TSlash else if r =? 58 then Some TVerb else None.

Lemma lex_path_loop_eq f s :
  lex_path_loop isLetter isNumber (S f) s =
  match inp s with
  | [] => emit TEOF [] [] s
  | r :: rest =>
    match path_sep r with
    | Some k => do s1 <- emit k [r] rest s; do s2 <- lex_run TPath (is_path isLetter isNumber) s1;
                lex_path_loop isLetter isNumber f s2
    | None => Err EInvalid
    end
  end.
Proof.
  cbn [lex_path_loop]. destruct (inp s) as [|r rest]; [reflexivity|]. unfold path_sep.
  destruct (N.eqb_spec r 47) as [->|_]; [reflexivity|]. destruct (N.eqb_spec r 58) as [->|_]; reflexivity.
Qed.
Lemma PT_sep k r v rest : path_sep r = Some k -> v <> [] -> forallb (is_path isLetter isNumber) v = true ->
  PathToks rest -> PathToks (Tok k [r] :: Tok TPath v :: rest).
Proof.
  unfold path_sep. destruct (N.eqb_spec r 47) as [->|_]; [intros [= <-]; now apply PT_slash|].
  destruct (N.eqb_spec r 58) as [->|_]; [intros [= <-]; now apply PT_colon|discriminate].
Qed.
Lemma PathToks_sep_ind (P : list token -> Prop) :
  P [tEOF] ->
  (forall k r v rest, path_sep r = Some k -> v <> [] -> forallb (is_path isLetter isNumber) v = true ->
     PathToks rest -> P rest -> P (Tok k [r] :: Tok TPath v :: rest)) ->
  forall ts, PathToks ts -> P ts.
Proof.
  intros H0 H1. induction 1 as [|v r Hv Hp Hr IH|v r Hv Hp Hr IH];
    [exact H0|now apply (H1 TSlash 47)|now apply (H1 TVerb 58)].
Qed.

Lemma lex_path_loop_spec fuel : forall s, (len s < fuel)%nat ->
  ok_all (fun s' => exists new, Ext s new s' /\ PathToks new /\ inp s' = [] /\ (length (toks s') <= 64)%nat)
         (lex_path_loop isLetter isNumber fuel s).
Proof.
  induction fuel as [|f IH]; intros s Hf; [lia|]. rewrite lex_path_loop_eq.
  destruct (inp s) as [|r rest] eqn:Ei.
  - apply (ok_all_impl _ _ _ (emit_spec TEOF [] [] s Ei)). intros s' (A & _ & C & D).
    exists [tEOF]. split; [exact A|]. split; [constructor|auto].
  - destruct (path_sep r) as [k|] eqn:Ek; [|exact I].
    apply (ok_all_bind _ _ _ _ (emit_spec k [r] rest s Ei)). intros s1 (A1 & _ & C1 & _).
    apply (ok_all_bind _ _ _ _ (lex_run_spec TPath (is_path isLetter isNumber) s1)). intros s2 (v & A2 & Hv & Hp & _ & L2).
    assert (Hf2 : (len s2 < f)%nat) by (unfold len in *; rewrite Ei in Hf; rewrite C1 in L2; cbn [length] in Hf; lia).
    apply (ok_all_impl _ _ _ (IH s2 Hf2)). intros s' (new & A3 & G & Hi & Hl).
    exists ([Tok k [r]] ++ [Tok TPath v] ++ new).
    split; [exact (Ext_trans _ _ _ _ _ A1 (Ext_trans _ _ _ _ _ A2 A3))|]. split; [now apply PT_sep|auto].
Qed.

Theorem lex_path_benign p : benign (lex_path isLetter isNumber p).
Proof.
  apply (ok_all_bind _ (fun _ => True) _ _ (lex_path_loop_spec _ (Lst p [] false) (Nat.lt_succ_diag_r (length p)))). intros; exact I.
Qed.
Theorem lex_path_sound p toks0 : lex_path isLetter isNumber p = Ok toks0 ->
  PathToks toks0 /\ spell toks0 = p /\ (length toks0 <= 64)%nat.
Proof.
  unfold lex_path. intros H. apply bind_ok in H. destruct H as (sf & E & [= <-]).
  destruct (ok_all_ok _ _ _ (lex_path_loop_spec _ (Lst p [] false) (Nat.lt_succ_diag_r (length p))) E)
    as (new & [A1 A2] & G & Hi & Hl). cbn in A1, A2.
  rewrite app_nil_r in A1. rewrite A1, rev_involutive. split; [exact G|]. split.
  - rewrite A2, Hi, app_nil_r. reflexivity.
  - rewrite A1, rev_length in Hl. exact Hl.
Qed.

Lemma ident_ok_inv v : ident_ok isLetter isNumber v = true -> v <> [] /\ forallb is_ident v = true.
Proof. unfold ident_ok. destruct v; cbn; [discriminate|]. intros H. split; [discriminate|exact H]. Qed.
Lemma lit_ok_inv v : lit_ok isLetter isNumber v = true ->
  exists x v', v = x :: v' /\ isLetter x = true /\ forallb is_literal v = true.
Proof.
  unfold lit_ok. destruct v as [|x v']; [discriminate|]. intros H. apply andb_true_iff in H.
  destruct H as [A B]. exists x, v'. auto.
Qed.

(* every token of a derivation spells at least one rune, so there are no more tokens than runes;
   and none is a ":" *)
Definition seg_tok (t : token) : Prop := tval t <> [] /\ is TVerb t = false.
Lemma toks_length ts : Forall seg_tok ts -> (length ts <= length (spell ts))%nat.
Proof using. clear isLetter isNumber.
  induction 1 as [|t ts [Ht _] _ IH]; [cbn; auto|]. rewrite spell_cons, app_length. cbn [length].
  destruct (tval t); [contradiction|]. cbn [length]. lia.
Qed.
Lemma PSeg_toks ts b : PSeg ts b -> Forall seg_tok ts.
Proof.
  intros [v Hv| |]; repeat constructor; try discriminate.
  destruct (lit_ok_inv _ Hv) as (x & v' & -> & _). discriminate.
Qed.
Lemma SegsG_toks (SG : list token -> bool -> Prop) :
  (forall ts b, SG ts b -> Forall seg_tok ts) -> forall ts b, SegsG SG ts b -> Forall seg_tok ts.
Proof.
  intros H ts b HS. induction HS as [ts b G|ts rest b G HS IH]; [now apply (H ts b)|].
  apply Forall_app. split; [now apply (H ts false)|]. constructor; [split; [discriminate|reflexivity]|exact IH].
Qed.
Lemma FieldPath_toks fp : FieldPath fp -> Forall seg_tok fp.
Proof.
  induction 1 as [v Hv|v rest Hv Hf IH]; destruct (ident_ok_inv _ Hv) as [Hne _]; repeat constructor; auto; discriminate.
Qed.
Lemma Seg_toks ts b : Seg ts b -> Forall seg_tok ts.
Proof.
  assert (Hp : forall k c l, is TVerb (Tok k [c]) = false -> Forall seg_tok l -> Forall seg_tok (Tok k [c] :: l))
    by (intros k c l Hk Hl; constructor; [split; [discriminate|exact Hk]|exact Hl]).
  intros [ts' b' G|fp Hfp|fp ps b' Hfp Hps].
  - now apply (PSeg_toks ts' b').
  - apply Hp; [reflexivity|]. apply Forall_app. split; [now apply FieldPath_toks|]. apply Hp; [reflexivity|constructor].
  - apply Hp; [reflexivity|]. apply Forall_app. split; [now apply FieldPath_toks|].
    apply Hp; [reflexivity|]. apply Forall_app. split; [exact (SegsG_toks PSeg PSeg_toks ps b' Hps)|].
    apply Hp; [reflexivity|constructor].
Qed.
Lemma Segs_toks ss b : Segs ss b -> Forall seg_tok ss.
Proof. exact (SegsG_toks Seg Seg_toks ss b). Qed.

(* completeness: every derivation of at most 64 tokens is accepted *)
Section Complete.
Hypothesis sane : Sane isLetter isNumber.

Lemma sane_letter r : In r [42; 46; 47; 58; 61; 123; 125] -> isLetter r = false.
Proof. intros H. now destruct (sane r H). Qed.
Lemma sane_ident r : In r [42; 46; 47; 58; 61; 123; 125] -> is_ident r = false.
Proof.
  intros H. destruct (sane r H) as [A B]. unfold Lexer.is_ident. rewrite A, B.
  cbn in H. repeat (destruct H as [ <- | H ]; [reflexivity|]). contradiction.
Qed.
Lemma sane_literal r : In r [42; 47; 58; 61; 123; 125] -> is_literal r = false.
Proof.
  intros H. unfold Lexer.is_literal. rewrite sane_ident by (destruct H as [<-|H]; [now left|now right; right]).
  cbn in H. repeat (destruct H as [ <- | H ]; [reflexivity|]). contradiction.
Qed.

(* what may follow a segment: nothing, or one of / } : *)
Definition Delim (rest : str) : Prop :=
  match rest with [] => True | x :: _ => x = 47 \/ x = 125 \/ x = 58 end.
Lemma Delim_literal rest : Delim rest -> stops is_literal rest.
Proof. destruct rest as [|x r]; cbn; auto. intros [ -> | [ -> | -> ] ]; apply sane_literal; cbn; auto 10. Qed.
Lemma Delim_nostar rest : Delim rest -> hd_is 42 rest = None.
Proof. destruct rest as [|x r]; cbn; auto. intros [ -> | [ -> | -> ] ]; reflexivity. Qed.

Lemma hd_is_cons c r : hd_is c (c :: r) = Some r.
Proof. unfold hd_is. now rewrite N.eqb_refl. Qed.

Definition not_dot (l : str) : Prop := hd_is 46 l = None.
Lemma length_rev_app {A} (a b : list A) : length (rev a ++ b) = (length a + length b)%nat.
Proof. now rewrite app_length, rev_length. Qed.

Lemma lex_field_path_complete fp : FieldPath fp -> forall fuel rest ts lf,
  stops is_ident rest -> not_dot rest -> (length fp <= fuel)%nat -> (length ts + length fp <= 64)%nat ->
  lex_field_path isLetter isNumber fuel (Lst (spell fp ++ rest) ts lf) = Ok (Lst rest (rev fp ++ ts) lf).
Proof.
  induction 1 as [v Hv|v fp Hv Hfp IH]; intros fuel rest ts lf Hs Hd Hf Hl; (destruct fuel as [|f]; [cbn in Hf; lia|]);
    destruct (ident_ok_inv _ Hv) as [Hne Hp]; cbn [length] in Hf, Hl; unfold lex_field_path.
  - rewrite spell_one, lex_run_complete; [|exact Hne|exact Hp|exact Hs|lia]. cbn. unfold not_dot in Hd. now rewrite Hd.
  - change (spell (Tok TIdent v :: tDot :: fp) ++ rest) with ((v ++ 46 :: spell fp) ++ rest).
    rewrite <- app_assoc, lex_run_complete; [|exact Hne|exact Hp|apply sane_ident; cbn; auto|lia].
    cbn [bind lex_field_path_loop inp app]. rewrite hd_is_cons, emit_do by (cbn [length]; lia). cbn [bind].
    cbn [rev]. rewrite <- !app_assoc. apply IH; [exact Hs|exact Hd|lia|cbn [length app]; lia].
Qed.

Definition SegComplete (SG : list token -> bool -> Prop) (lexvar : option (lst -> outcome lst)) : Prop :=
  forall new b rest ts, SG new b -> Delim rest -> (length ts + length new <= 64)%nat ->
    lex_segment isLetter isNumber lexvar (Lst (spell new ++ rest) ts false) = Ok (Lst rest (rev new ++ ts) b).

Lemma pseg_complete lexvar new b rest ts :
  PSeg new b -> Delim rest -> (length ts + length new <= 64)%nat ->
  lex_segment isLetter isNumber lexvar (Lst (spell new ++ rest) ts false) = Ok (Lst rest (rev new ++ ts) b).
Proof.
  intros HP HD Hl. destruct HP as [v Hv| |].
  - destruct (lit_ok_inv _ Hv) as (x & v' & -> & Hx & Hp). cbn [length] in Hl.
    unfold lex_segment. cbn [inp spell map concat tval app]. rewrite app_nil_r. cbn [app]. rewrite Hx.
    change (x :: v' ++ rest) with ((x :: v') ++ rest).
    rewrite lex_run_complete; auto; [discriminate|now apply Delim_literal|lia].
  - cbn [length] in Hl. unfold lex_segment. cbn [inp spell map concat tval app tStar].
    rewrite (sane_letter 42) by (cbn; auto). cbn [N.eqb Pos.eqb]. rewrite (Delim_nostar _ HD).
    rewrite emit_do by (cbn; lia). reflexivity.
  - cbn [length] in Hl. unfold lex_segment. cbn [inp spell map concat tval app tStarStar].
    rewrite (sane_letter 42) by (cbn; auto). cbn [N.eqb Pos.eqb]. rewrite hd_is_cons.
    rewrite emit_do by (cbn; lia). reflexivity.
Qed.

Lemma segs_complete (SG : list token -> bool -> Prop) lexvar :
  SegComplete SG lexvar ->
  forall new b, SegsG SG new b -> forall fuel rest ts,
  Delim rest -> hd_is 47 rest = None -> (length new < fuel)%nat -> (length ts + length new <= 64)%nat ->
  lex_segments isLetter isNumber fuel lexvar (Lst (spell new ++ rest) ts false) = Ok (Lst rest (rev new ++ ts) b).
Proof.
  intros HC new b HS. induction HS as [new b G|new rest' b G HS IH]; intros fuel rest ts HD Hns Hf Hl;
    (destruct fuel as [|f]; [lia|]); cbn [lex_segments].
  - rewrite (HC new b rest ts G HD Hl). cbn [bind inp]. now rewrite Hns.
  - rewrite app_length in Hf, Hl. cbn [length] in Hf, Hl.
    rewrite spell_app, <- app_assoc. change (spell (tSlash :: rest') ++ rest) with (47 :: spell rest' ++ rest).
    rewrite (HC new false (47 :: spell rest' ++ rest) ts G); [|cbn; auto|lia].
    cbn [bind inp last]. rewrite hd_is_cons. rewrite emit_do by (cbn [toks]; rewrite length_rev_app; lia).
    cbn [bind last toks]. rewrite IH; auto; try (cbn [length]; rewrite ?length_rev_app; lia).
    rewrite rev_app_distr. cbn [rev]. rewrite <- !app_assoc. reflexivity.
Qed.

(* "{" fp "}" and "{" fp "=" ps "}" *)
Lemma var_complete fuel fp rest ts : FieldPath fp ->
  (length fp + 2 <= fuel)%nat -> (length ts + (length fp + 2) <= 64)%nat ->
  lex_variable isLetter isNumber fuel (Lst (spell (tOpen :: fp ++ [tClose]) ++ rest) ts false) =
  Ok (Lst rest (rev (tOpen :: fp ++ [tClose]) ++ ts) false).
Proof.
  intros Hfp Hf Hl. rewrite spell_var. unfold lex_variable. cbn [app inp]. rewrite hd_is_cons, emit_do by lia. cbn [bind].
  rewrite <- app_assoc, (lex_field_path_complete _ Hfp); [|apply sane_ident; cbn; auto 10|reflexivity|lia|cbn [length]; lia].
  cbn [bind inp]. change (hd_is 61 ([125] ++ rest)) with (@None str). cbn [app]. rewrite hd_is_cons.
  rewrite emit_do by (cbn [toks]; rewrite length_rev_app; cbn [length]; lia).
  cbn [last toks rev]. rewrite rev_app_distr. cbn [rev app]. rewrite <- !app_assoc. reflexivity.
Qed.
Lemma varpat_complete fuel fp ps b rest ts : FieldPath fp -> PSegs ps b ->
  (length fp + length ps + 3 <= fuel)%nat -> (length ts + (length fp + length ps + 3) <= 64)%nat ->
  lex_variable isLetter isNumber fuel (Lst (spell (tOpen :: fp ++ tEq :: ps ++ [tClose]) ++ rest) ts false) =
  Ok (Lst rest (rev (tOpen :: fp ++ tEq :: ps ++ [tClose]) ++ ts) b).
Proof.
  intros Hfp Hps Hf Hl. rewrite spell_varpat. unfold lex_variable. cbn [app inp]. rewrite hd_is_cons, emit_do by lia. cbn [bind].
  rewrite <- !app_assoc, (lex_field_path_complete _ Hfp); [|apply sane_ident; cbn; auto 10|reflexivity|lia|cbn [length]; lia].
  cbn [bind inp app]. rewrite hd_is_cons, emit_do by (cbn [toks]; rewrite length_rev_app; cbn [length]; lia).
  cbn [bind]. rewrite (segs_complete PSeg None (pseg_complete None) ps b Hps);
    [|cbn; auto|reflexivity|lia|cbn [length]; rewrite length_rev_app; cbn [length]; lia].
  cbn [bind inp]. rewrite hd_is_cons, emit_do by (cbn [toks]; rewrite !length_rev_app; cbn [length]; rewrite length_rev_app; cbn [length]; lia).
  f_equal. f_equal. cbn [rev]. rewrite !rev_app_distr. cbn [rev app]. rewrite rev_app_distr. cbn [rev app]. rewrite <- !app_assoc. reflexivity.
Qed.

Lemma SegsG_bound (SG : list token -> bool -> Prop) n ts b :
  SegsG SG ts b -> (length ts <= n)%nat -> SegsG (fun ts b => SG ts b /\ (length ts <= n)%nat) ts b.
Proof.
  intros HS. induction HS as [ts b G|ts rest b G HS IH]; intros Hl.
  - apply Ss_one. auto.
  - rewrite app_length in Hl. cbn [length] in Hl. apply Ss_cons; [split; [exact G|lia]|apply IH; lia].
Qed.

Lemma lex_segment_open lv s rest0 :
  inp s = 123 :: rest0 -> lex_segment isLetter isNumber (Some lv) s = lv s.
Proof.
  intros H. unfold lex_segment. rewrite H. rewrite (sane_letter 123) by (cbn; auto 10). reflexivity.
Qed.

Lemma seg_complete_top fuel :
  SegComplete (fun ts b => Seg ts b /\ (length ts <= fuel)%nat) (Some (lex_variable isLetter isNumber fuel)).
Proof.
  intros new b rest ts [G Hf] HD Hl.
  destruct G as [new b G'|fp Hfp|fp ps b Hfp Hps].
  - now apply pseg_complete.
  - rewrite length_var in Hf, Hl. rewrite <- (var_complete fuel fp rest ts Hfp Hf Hl).
    apply (lex_segment_open _ _ (spell (fp ++ [tClose]) ++ rest)). reflexivity.
  - rewrite length_varpat in Hf, Hl. rewrite <- (varpat_complete fuel fp ps b rest ts Hfp Hps Hf Hl).
    apply (lex_segment_open _ _ (spell (fp ++ tEq :: ps ++ [tClose]) ++ rest)). reflexivity.
Qed.

(* "/" segments, then whatever follows them *)
Lemma lex_template_segs ss b rest : Segs ss b -> Delim rest -> hd_is 47 rest = None -> (length ss + 1 <= 64)%nat ->
  lex_template_st isLetter isNumber (47 :: spell ss ++ rest) =
  match hd_is 58 rest with
  | Some rest2 => do s3 <- emit TVerb [58] rest2 (Lst rest (rev ss ++ [tSlash]) b); lex_verb isLetter isNumber s3
  | None => if is_nil rest then emit TEOF [] [] (Lst rest (rev ss ++ [tSlash]) b) else Err EInvalid
  end.
Proof.
  intros HS HD Hn Hl. unfold lex_template_st. set (fuel := S (length _)). rewrite hd_is_cons, emit_do by (cbn; lia). cbn [bind].
  assert (Hf : (length ss < fuel)%nat).
  { pose proof (toks_length _ (Segs_toks ss b HS)). unfold fuel. cbn [length]. rewrite app_length. lia. }
  rewrite (segs_complete _ _ (seg_complete_top fuel) ss b (SegsG_bound Seg _ ss b HS (Nat.lt_le_incl _ _ Hf))); auto.
  cbn [length]. lia.
Qed.

Theorem lex_template_complete toks0 :
  Tmpl toks0 -> (length toks0 <= 64)%nat -> lex_template isLetter isNumber (spell toks0) = Ok toks0.
Proof.
  intros HT Hl. unfold lex_template.
  destruct HT as [ss b HS|ss b v HS Hv]; rewrite length_tmpl in Hl; cbn [length] in Hl.
  - rewrite spell_tmpl_plain, <- (app_nil_r (spell ss)), (lex_template_segs ss b [] HS); [|exact I|reflexivity|lia].
    cbn [hd_is is_nil]. rewrite emit_do by (rewrite length_rev_app; cbn [length]; lia).
    cbn [bind toks rev]. now rewrite rev_app_distr, rev_involutive.
  - rewrite spell_tmpl_verb, (lex_template_segs ss b (58 :: v) HS); [|cbn; auto|reflexivity|lia].
    rewrite hd_is_cons, emit_do by (rewrite length_rev_app; cbn [length]; lia). cbn [bind]. unfold lex_verb.
    unfold verb_ok in Hv. apply andb_true_iff in Hv. destruct Hv as [Hv1 Hv2].
    rewrite <- (app_nil_r v) at 1. rewrite lex_run_complete;
      [|destruct v; discriminate|exact Hv2|exact I|cbn [length]; rewrite length_rev_app; cbn [length]; lia].
    cbn [bind inp]. rewrite emit_do by (cbn [length]; rewrite length_rev_app; cbn [length]; lia).
    cbn [bind toks rev]. rewrite !rev_app_distr, rev_involutive. cbn [rev app]. now rewrite <- !app_assoc.
Qed.

(* request paths: lex_path accepts the separator/text sequences of at most 64 tokens, and a text has one reading *)
Lemma path_sep_stops r k : path_sep r = Some k -> is_path isLetter isNumber r = false.
Proof.
  unfold path_sep. intros H. destruct (N.eqb_spec r 47) as [->|_]; [|destruct (N.eqb_spec r 58) as [->|_]; [|discriminate]];
    unfold is_path; rewrite sane_literal by (cbn; auto); reflexivity.
Qed.
Lemma PathToks_stops ts : PathToks ts -> stops (is_path isLetter isNumber) (spell ts).
Proof. induction 1 as [|k r v rest Hk _ _ _ _] using PathToks_sep_ind; [exact I|exact (path_sep_stops r k Hk)]. Qed.

Lemma PathToks_unique a : PathToks a -> forall b, PathToks b -> spell a = spell b -> a = b.
Proof.
  induction 1 as [|k r v rest Hk Hv Hp Hr IH] using PathToks_sep_ind;
    induction 1 as [|k' r' v' rest' Hk' Hv' Hp' Hr' _] using PathToks_sep_ind; intros E; try discriminate E; [reflexivity|].
    change (r :: v ++ spell rest = r' :: v' ++ spell rest') in E. injection E as <- E.
    rewrite Hk in Hk'. injection Hk' as <-.
    pose proof (span_app _ _ _ Hp (PathToks_stops _ Hr)) as S1.
    rewrite E, (span_app _ _ _ Hp' (PathToks_stops _ Hr')) in S1. injection S1 as <- E'.
    now rewrite (IH rest' Hr').
Qed.

Lemma lex_path_loop_complete toks : PathToks toks -> forall fuel ts,
  (length toks <= fuel)%nat -> (length ts + length toks <= 64)%nat ->
  lex_path_loop isLetter isNumber fuel (Lst (spell toks) ts false) = Ok (Lst [] (rev toks ++ ts) false).
Proof.
  induction 1 as [|k r v rest Hk Hv Hp Hr IH] using PathToks_sep_ind.
  - intros fuel ts Hf Hl. destruct fuel as [|f]; [cbn in Hf; lia|]. cbn [length] in Hl.
    rewrite lex_path_loop_eq. cbn [inp]. change (spell [tEOF]) with (@nil N). cbv iota. now rewrite emit_do by lia.
  - intros fuel ts Hf Hl. destruct fuel as [|f]; [cbn in Hf; lia|]. cbn [length] in Hf, Hl.
    rewrite lex_path_loop_eq. change (spell (Tok k [r] :: Tok TPath v :: rest)) with (r :: v ++ spell rest).
    cbn [inp]. rewrite Hk, emit_do by lia. cbn [bind].
    rewrite lex_run_complete; [|exact Hv|exact Hp|exact (PathToks_stops _ Hr)|cbn [length]; lia].
    cbn [bind]. rewrite IH by (cbn [length]; lia). cbn [rev]. now rewrite <- !app_assoc.
Qed.

Lemma PathToks_length toks : PathToks toks -> (length toks <= S (length (spell toks)))%nat.
Proof.
  induction 1 as [|k r v rest _ Hv _ _ IH] using PathToks_sep_ind; [cbn; lia|].
  change (spell (Tok k [r] :: Tok TPath v :: rest)) with (r :: v ++ spell rest). cbn [length]. rewrite app_length.
  destruct v; [contradiction|]. cbn [length]. lia.
Qed.

(* the spelling of a variable's pattern determines its tokens *)
Lemma split_at_unique (x : N) (a c b d : str) :
  ~ In x a -> ~ In x c -> a ++ x :: b = c ++ x :: d -> a = c /\ b = d.
Proof.
  revert c. induction a as [|y a IH]; intros [|z c] Ha Hc E; cbn in E.
  - inversion E. auto.
  - inversion E; subst. exfalso. apply Hc. now left.
  - inversion E; subst. exfalso. apply Ha. now left.
  - inversion E; subst. destruct (IH c) as [-> ->]; auto; intros H; [apply Ha|apply Hc]; now right.
Qed.

Lemma PSeg_no_slash ts b : PSeg ts b -> ~ In 47 (spell ts).
Proof.
  intros [v Hv| |]; cbn; try (intros [H|[H|[]]]; discriminate); try (intros [H|[]]; discriminate).
  rewrite app_nil_r. destruct (lit_ok_inv _ Hv) as (x & v' & -> & _ & Hp). intros Hin.
  rewrite forallb_forall in Hp. specialize (Hp 47 Hin). rewrite sane_literal in Hp; [discriminate|cbn; auto 10].
Qed.

Lemma PSeg_spell_inj t1 b1 t2 b2 : PSeg t1 b1 -> PSeg t2 b2 -> spell t1 = spell t2 -> t1 = t2.
Proof.
  assert (Hlit : forall v r, lit_ok isLetter isNumber v = true -> v <> 42 :: r).
  { intros v r H ->. destruct (lit_ok_inv _ H) as (x & v' & [= <- _] & Hx & _).
    rewrite (sane_letter 42) in Hx; [discriminate|now left]. }
  intros [v1 H1| |] [v2 H2| |]; cbn; rewrite ?app_nil_r; intros E; try discriminate; auto; subst.
  all: try reflexivity; exfalso; eapply Hlit; eauto.
Qed.

Theorem PSegs_spell_inj p1 b1 : PSegs p1 b1 -> forall p2 b2, PSegs p2 b2 -> spell p1 = spell p2 -> p1 = p2.
Proof.
  induction 1 as [t1 b1 G1|t1 r1 b1 G1 HS1 IH]; intros p2 b2 HS2 E.
  - destruct HS2 as [t2 b2 G2|t2 r2 b2 G2 HS2].
    + eapply PSeg_spell_inj; eauto.
    + exfalso. rewrite spell_sep in E.
      apply (PSeg_no_slash _ _ G1). rewrite E. apply in_or_app. right. now left.
  - destruct HS2 as [t2 b2 G2|t2 r2 b2 G2 HS2].
    + exfalso. rewrite spell_sep in E.
      apply (PSeg_no_slash _ _ G2). rewrite <- E. apply in_or_app. right. now left.
    + rewrite !spell_sep in E.
      destruct (split_at_unique 47 _ _ _ _ (PSeg_no_slash _ _ G1) (PSeg_no_slash _ _ G2) E) as [E1 E2].
      rewrite (PSeg_spell_inj _ _ _ _ G1 G2 E1), (IH _ _ HS2 E2). reflexivity.
Qed.

End Complete.
End LexerProofs.
