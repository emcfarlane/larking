(* C08 -- Message size limits hold on every protocol.
   Model: Model/Limits.v (readAll / writeAll of mux.go, the limit tests of the three stream codecs,
   streamGRPC.RecvMsg / SendMsg also used by gRPC-web, streamWS.RecvMsg / SendMsg, streamHTTP.writeMsg),
   meaning: Spec/SizeLimit.v. Limits are positive Go ints (64-bit). A wire message carries its
   declared length (any value its prefix field can hold), the bytes really present, what gzip
   makes of them (any expansion) and whether they unmarshal, independently of each other.
   "Err ETooLarge" is the size class of refusals. *)
From Larking Require Import Base.GoSem Base.Reader Spec.SizeLimit
  Model.Codec Model.Limits Proofs.CodecProofs Proofs.LimitsProofs.
Local Open Scope Z_scope.

(* Receive, every path p (HTTP unary under any read schedule, HTTP JSON / protobuf streams, gRPC and
   gRPC-web with or without a negotiated compressor, WebSocket): whatever is handed to the handler
   is the message on the wire, complete and decodable, and its encoded size after decompression is
   within the receive limit. *)
Theorem C08_never_over : forall p c w n, wf_cfg c -> wf_wire p w ->
  recv p c w = Ok n -> n = msg_size p w /\ decodable p w = true /\ n <= maxRecv c.
Proof.
  intros p c w n Hc Hw H. pose proof (recv_spec p c w Hc Hw) as S. rewrite H in S. cbn [recv_post] in S. tauto.
Qed.
Print Assumptions C08_never_over.

(* ... and no message whose size (after decompression) and frame are within the limit is refused
   on size grounds, whatever else is wrong with it; exactly at the limit included. *)
Theorem C08_never_under_refused : forall p c w, wf_cfg c -> wf_wire p w ->
  msg_size p w <= maxRecv c -> wire_len p w <= maxRecv c -> recv p c w <> Err ETooLarge.
Proof.
  intros p c w Hc Hw Hs Hl H. pose proof (recv_spec p c w Hc Hw) as S. rewrite H in S.
  destruct S as [_ S]. specialize (S eq_refl). lia.
Qed.
Print Assumptions C08_never_under_refused.

(* A complete decodable message within the limit is delivered, at its size ... *)
Theorem C08_within_delivered : forall p c w, wf_cfg c -> wf_wire p w ->
  decodable p w = true -> msg_size p w <= maxRecv c -> wire_len p w <= maxRecv c ->
  recv p c w = Ok (msg_size p w).
Proof. exact recv_complete. Qed.
Print Assumptions C08_within_delivered.

(* ... and one over the limit fails with the size error -- also when only its decompressed size is
   over the limit (a 1 MiB message in a 1 KiB frame), and for every length prefix up to 2^64-1. *)
Theorem C08_over_refused : forall p c w, wf_cfg c -> wf_wire p w ->
  decodable p w = true -> maxRecv c < msg_size p w -> recv p c w = Err ETooLarge.
Proof.
  intros p c w Hc Hw Hd Hs. pose proof (recv_spec p c w Hc Hw) as S.
  destruct (recv p c w) as [n|e| |]; cbn [recv_post] in S; try contradiction.
  - lia.
  - f_equal. now apply S.
Qed.
Print Assumptions C08_over_refused.

(* The unary HTTP gate does not depend on how the body arrives. *)
Theorem C08_read_all_schedule_free : forall limit r1 r2,
  0 <= limit -> Forall (fun n => 0 <= n) r1 -> Forall (fun n => 0 <= n) r2 -> sum r1 = sum r2 ->
  read_all limit 0 r1 = read_all limit 0 r2.
Proof. intros limit r1 r2 Hl H1 H2 E. rewrite !read_all_spec by (auto; lia). now rewrite E. Qed.
Print Assumptions C08_read_all_schedule_free.

(* HttpBody uploads of any length arrive as chunks of 1..limit bytes that add up to the upload:
   never over, and never refused. *)
Theorem C08_body_chunks : forall fuel limit total, 1 <= limit -> total < Z.of_nat fuel ->
  Forall (fun n => 1 <= n <= limit) (body_chunks fuel limit total) /\
  sum (body_chunks fuel limit total) = Z.max 0 total.
Proof. exact body_chunks_spec. Qed.
Print Assumptions C08_body_chunks.

(* A whole call (the handler takes messages until the first error) passes the executable
   specification predicate that the harness evaluates on the implementation's observations. *)
Theorem C08_recv_call_meets_spec : forall p c, wf_cfg c -> forall ws, Forall (wf_wire p) ws ->
  recv_ok (maxRecv c) (map (sent_of p) ws) (fst (recv_run p c ws))
          (match snd (recv_run p c ws) with EndOk => true | _ => false end) = true.
Proof. exact recv_run_meets_spec. Qed.
Print Assumptions C08_recv_call_meets_spec.

(* Send, every path (HTTP unary, HTTP server streams, gRPC, gRPC-web, WebSocket): a reply that is
   written has exactly its size on the wire and is within the send limit; *)
Theorem C08_send_never_over : forall p c size n, wf_cfg c -> 0 <= size ->
  send p c size = Ok n -> n = size /\ size <= maxSend c.
Proof.
  intros p c size n _ Hz H. pose proof (send_spec p c size) as S. rewrite H in S. destruct S as [S1 S2]. auto.
Qed.
Print Assumptions C08_send_never_over.

(* a reply within the send limit (and within what a frame header can express) is never refused on
   size grounds -- whatever the receive limit is -- and is written; one over the limit is refused. *)
Theorem C08_send_never_under_refused : forall p c size,
  0 <= size -> size <= maxSend c -> size < 2 ^ 32 -> send p c size <> Err ETooLarge.
Proof.
  intros p c size _ H H32 E. pose proof (send_spec p c size) as S. rewrite E in S. destruct S as [_ S]. destruct p; lia.
Qed.
Print Assumptions C08_send_never_under_refused.
Theorem C08_send_within_written : forall p c size, wf_cfg c ->
  0 <= size -> size <= maxSend c -> size < 2 ^ 32 -> send p c size = Ok size.
Proof.
  intros p c size _ Hz H H32. pose proof (send_spec p c size) as S.
  destruct (send p c size) as [n|e| |]; try contradiction.
  - f_equal. now apply S.
  - destruct S as [_ S]. destruct p; lia.
Qed.
Print Assumptions C08_send_within_written.
Theorem C08_send_over_refused : forall p c size, maxSend c < size -> send p c size = Err ETooLarge.
Proof.
  intros p c size H. pose proof (send_spec p c size) as S. destruct (send p c size) as [n|e| |]; try contradiction.
  - lia.
  - f_equal. apply S.
Qed.
Print Assumptions C08_send_over_refused.

Theorem C08_send_call_meets_spec : forall p c, wf_cfg c -> forall sizes, Forall (fun s => 0 <= s) sizes ->
  (match p with SGrpc | SGrpcWeb => maxSend c < 2 ^ 32 | _ => True end) ->
  let '(res, arr) := send_run p c sizes in
  send_ok (maxSend c) (firstn (length res) sizes) res arr = true.
Proof. intros p c _. apply send_run_meets_spec. Qed.
Print Assumptions C08_send_call_meets_spec.

(* The stream codecs at byte level (the model of C17: every carried-over buffer, every remaining
   input, every schedule of read sizes): a message returned by ReadNext is within the limit, and a
   message that fits the limit is returned, not refused. *)
Theorem C08_codec_never_over : forall c b s limit dst n s',
  (0 < limit)%nat -> (N.of_nat limit < 2 ^ 63)%N ->
  read_next c b s limit = RRet dst n None s' -> (n <= limit)%nat.
Proof.
  intros c b s limit dst n s' H1 H2 H. pose proof (read_next_refines c b s limit H1 H2) as R. rewrite H in R.
  destruct R as (Hl & Hp & _). apply parse_msg_inv in Hp. rewrite firstn_length in Hp. lia.
Qed.
Print Assumptions C08_codec_never_over.
Theorem C08_codec_never_under_refused : forall c b s limit m R,
  (0 < limit)%nat -> (N.of_nat limit < 2 ^ 63)%N -> fits c limit m -> b ++ rem s = write_next c m ++ R ->
  exists dst n s', read_next c b s limit = RRet dst n None s' /\ firstn n dst = m.
Proof. exact codec_delivers_fitting. Qed.
Print Assumptions C08_codec_never_under_refused.

Definition cfg128 := Cfg 128 130.
Example cfg128_wf : wf_cfg cfg128. Proof. unfold wf_cfg, cfg128; cbn; lia. Qed.
(* a 1 MiB message in a 1062-byte gzip frame under a 4096-byte limit: the frame passes the prefix
   test, the message is refused after decompression (finding F4a) *)
Example bomb : wf_wire (RGrpc true) (Wire 1062 true 1062 (Some 1048576) true) /\
  recv (RGrpc true) (Cfg 4096 64) (Wire 1062 true 1062 (Some 1048576) true) = Err ETooLarge.
Proof. split; [unfold wf_wire; cbn; repeat split; lia|reflexivity]. Qed.
Example at_the_limit :
  recv (RGrpc true) cfg128 (Wire 29 true 29 (Some 128) true) = Ok 128 /\
  recv (RGrpc true) cfg128 (Wire 29 true 29 (Some 129) true) = Err ETooLarge /\
  recv RWebSocket cfg128 (Wire 0 false 128 None true) = Ok 128 /\
  recv RWebSocket cfg128 (Wire 0 false 129 None true) = Err ETooLarge /\
  recv (RHttpUnary [100; 28]) cfg128 (Wire 0 false 128 None true) = Ok 128 /\
  recv (RHttpUnary [100; 28; 1]) cfg128 (Wire 0 false 129 None true) = Err ETooLarge /\
  recv RHttpProto cfg128 (Wire (2 ^ 64 - 1) false 3 None true) = Err ETooLarge /\
  recv RHttpProto cfg128 (Wire (2 ^ 63) false 3 None true) = Err ETooLarge /\
  recv (RGrpc false) cfg128 (Wire (2 ^ 32 - 1) false 3 None true) = Err ETooLarge /\
  recv RHttpJSON cfg128 (Wire 128 false 128 None true) = Ok 128 /\
  recv RHttpJSON cfg128 (Wire 129 false 200 None true) = Err ETooLarge.
Proof. repeat split; reflexivity. Qed.
(* the send gate looks at the send limit only: a reply of 130 bytes passes with a receive limit of 128 *)
Example send_uses_send_limit :
  send SGrpc cfg128 130 = Ok 130 /\ send SGrpc cfg128 131 = Err ETooLarge /\
  send SHttpStream cfg128 131 = Err ETooLarge /\ send SWebSocket cfg128 131 = Err ETooLarge /\
  send SGrpc (Cfg 1 (2 ^ 62)) (2 ^ 32 + 3) = Err ETooLarge.
Proof. repeat split; reflexivity. Qed.
Example call_instance :
  recv_run (RGrpc true) cfg128 [Wire 29 true 29 (Some 64) true; Wire 29 true 29 (Some 129) true; Wire 29 true 29 (Some 64) true]
  = ([64], EndSize) /\
  send_run SGrpcWeb cfg128 [64; 130; 64; 131; 64] = ([true; true; true; false], [64; 130; 64]) /\
  body_chunks 10 128 300 = [128; 128; 44].
Proof. repeat split; reflexivity. Qed.
