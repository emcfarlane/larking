(* C01 -- Routing soundness: a request only reaches a method whose rule covers it.
   Model: Model/Lexer.v (lexPath), Model/Match.v (variable.index, path.search, path.match, the
   path normalisation of ServeHTTP), Model/Trie.v (what registration builds).
   Spec: Spec/Route.v -- MatchEdges: a sequence of trie edges covers the request's tokens, a literal
   edge by spelling separator and text, a variable edge by a "/" and an instance of its pattern
   ("*" up to the next separator, "**" up to the next ":"), the capture being the text covered.
   L is the list of (method, binding) pairs registered so far -- annotation, additional bindings,
   service-config rules and the implicit /Service/Method binding alike (decl_bindings). *)
From Larking Require Import Base.GoSem Model.Lexer Model.Trie Model.Match Spec.Grammar Spec.Route
  Spec.Template
  Proofs.LexerProofs Proofs.MatchProofs Proofs.TrieProofs Proofs.RoutingProofs Proofs.SpellProofs Proofs.TemplateInstProofs.
Local Open Scope N_scope.

(* every trie that any history of registerService calls publishes satisfies the registration
   invariant for a list L of bindings that were declared by those services *)
Theorem C01_published_states : forall isLetter isNumber resolves body_ok resp_ok svcs,
  exists L, Inv isLetter isNumber resolves L (run_services isLetter isNumber resolves body_ok resp_ok empty_node svcs) /\
    forall x, In x L -> exists ds, In ds svcs /\ decls_regs ds x.
Proof.
  intros isLetter isNumber resolves body_ok resp_ok svcs.
  destruct (published_Inv isLetter isNumber resolves body_ok resp_ok svcs [] empty_node (Inv_empty isLetter isNumber resolves)) as (L' & HI & HL).
  exists (L' ++ []). split; [exact HI|]. intros x Hx. rewrite app_nil_r in Hx. now apply HL.
Qed.
Print Assumptions C01_published_states.

(* dispatch is sound: if the request is routed to a binding m with captures caps, then a binding b
   was registered for exactly that method, b carries the request's verb (or is of kind '*'), and the
   edges b's template compiles to cover the request path's tokens, with exactly these captures *)
Theorem C01_dispatch_sound :
  forall isLetter isNumber resolves okconv, Sane isLetter isNumber ->
  forall L root verb p m caps,
  Inv isLetter isNumber resolves L root -> route okconv isLetter isNumber root verb p = Ok (m, caps) ->
  exists mid b es toks,
    In (mid, b) L /\ m_id m = mid /\ covers_verb (b_verb b) verb /\ m_body m = b_body b /\
    compiled isLetter isNumber resolves mid b es (m_vars m) /\
    lex_path isLetter isNumber (normalise p) = Ok toks /\ MatchEdges es toks caps.
Proof. exact dispatch_sound. Qed.
Print Assumptions C01_dispatch_sound.

(* the tokens of a request path are the path: separator, text, separator, text, ..., end; they
   spell it exactly (nothing invented, nothing dropped) and there are at most 64 *)
Theorem C01_path_tokens : forall isLetter isNumber p toks,
  lex_path isLetter isNumber p = Ok toks ->
  PathToks isLetter isNumber toks /\ spell toks = p /\ (length toks <= 64)%nat.
Proof. exact lex_path_sound. Qed.
Print Assumptions C01_path_tokens.

(* the same read back as text: the (normalised) request path is the registered template's edge
   sequence with every literal piece spelled as registered and every variable replaced by "/" and
   its capture, in order -- so the fields hold exactly the path text the variables cover, and every
   other character of the path is a literal of the template *)
Theorem C01_path_is_instance :
  forall isLetter isNumber resolves okconv, Sane isLetter isNumber ->
  forall L root verb p m caps,
  Inv isLetter isNumber resolves L root -> route okconv isLetter isNumber root verb p = Ok (m, caps) ->
  exists mid b es,
    In (mid, b) L /\ m_id m = mid /\ covers_verb (b_verb b) verb /\
    compiled isLetter isNumber resolves mid b es (m_vars m) /\
    fill es (rev caps) = Some (normalise p).
Proof. exact path_is_instance. Qed.
Print Assumptions C01_path_is_instance.

(* the token-level covering and the string-level reading of "the path is an instance of the
   template" (Spec/Template.v: split the path at "/", line the pieces up with the segments) are the
   same relation, with the same captures: for a registered binding whose template the string-level
   reader parses to t, and a request path the path lexer accepts, the compiled edges cover the path's
   tokens iff the path is an instance of t, and the named captures coincide (unnamed * / ** segments
   have a capture in larking and none in the string-level reading: the filter) *)
Theorem C01_covering_is_instance : forall isLetter isNumber resolves, Sane isLetter isNumber ->
  forall mid b es vfs t p ptoks,
  compiled isLetter isNumber resolves mid b es vfs ->
  parse_tmpl isLetter isNumber (b_tmpl b) = Some t ->
  lex_path isLetter isNumber (normalise p) = Ok ptoks ->
  (forall cs, inst isLetter isNumber true t p = Some cs ->
     exists caps, MatchEdges es ptoks caps /\ cs = filter (fun fc => negb (is_nil (fst fc))) (combine vfs (rev caps))) /\
  (forall caps, MatchEdges es ptoks caps ->
     exists cs, inst isLetter isNumber true t p = Some cs /\ cs = filter (fun fc => negb (is_nil (fst fc))) (combine vfs (rev caps))).
Proof. exact inst_iff_cover. Qed.
Print Assumptions C01_covering_is_instance.

(* a variable's capture is determined by its pattern and the tokens: variable.index returns exactly
   the covering the specification describes, or reports that there is none *)
Theorem C01_capture_exact : forall pat rest c z,
  var_index pat rest = Ok (Some (c, z)) <-> (rest = c ++ z /\ MatchPat pat c z).
Proof.
  intros pat rest c z. split.
  - apply var_index_sound.
  - intros [-> H]. now apply var_index_complete.
Qed.
Print Assumptions C01_capture_exact.

(* one capture per variable of the binding, in the order the request decoder expects: routing sets
   the fields bound by the template's variables and no other (path_params pairs them up) *)
Theorem C01_only_bound_fields :
  forall isLetter isNumber resolves okconv, Sane isLetter isNumber ->
  forall L root verb p m caps,
  Inv isLetter isNumber resolves L root -> route okconv isLetter isNumber root verb p = Ok (m, caps) ->
  length caps = length (m_vars m) /\
  path_params (m, caps) = filter (fun fc => negb (is_nil (fst fc))) (combine (rev (m_vars m)) caps).
Proof.
  intros isLetter isNumber resolves okconv sane L root verb p m caps HI H. split; [|reflexivity].
  unfold route in H. destruct (lex_path isLetter isNumber (normalise p)) as [toks| | |]; try discriminate.
  pose proof (search_sound okconv _ _ _ _ _ H) as HS.
  pose proof (sound_caps_length okconv verb root 0%nat toks m caps
                (WFn_TrieInv (PatG isLetter isNumber) (PatG_ok isLetter isNumber) 0%nat root (inv_wf _ _ _ _ _ HI)) HS) as HL.
  cbn in HL. lia.
Qed.
Print Assumptions C01_only_bound_fields.

Definition asciiL (r : N) : bool := ((65 <=? r) && (r <=? 90)) || ((97 <=? r) && (r <=? 122)).
Definition asciiN (r : N) : bool := (48 <=? r) && (r <=? 57).
Definition all_ok (_ : str) (_ : list str) := true.
Definition conv_ok (_ : list str) (_ : str) := true.
Definition sv (l : list N) : str := l.
Definition mA : str := sv [47;83;47;65].                  (* "/S/A" *)
Definition mB : str := sv [47;83;47;66].
Definition GET := sv [71;69;84].
Definition mk verb tmpl := {| h_main := {| b_verb := verb; b_tmpl := tmpl; b_body := BNone; b_resp := []; b_nested := false |}; h_adds := [] |}.
(* A: GET /aa/{s1}:v     B: GET /aa/{s2=bb/**} *)
Definition svc : list mdecl :=
  [ {| d_id := mA; d_config := []; d_annot := Some (mk GET (sv [47;97;97;47;123;115;49;125;58;118])) |};
    {| d_id := mB; d_config := []; d_annot := Some (mk GET (sv [47;97;97;47;123;115;50;61;98;98;47;42;42;125])) |} ].
Definition root1 := run_services asciiL asciiN all_ok all_ok all_ok empty_node [svc].

Example routes :
  (* "/aa/xy:v" -> A with capture "xy";  "/aa/bb/c/d" -> B with capture "bb/c/d";
     "/aa:v" is not captured by {s1} (the ':' is a verb separator, not part of a segment);
     the implicit binding "/S/B" answers any verb *)
  (exists m, route conv_ok asciiL asciiN root1 GET (sv [47;97;97;47;120;121;58;118]) = Ok (m, [sv [120;121]]) /\ m_id m = mA) /\
  (exists m, route conv_ok asciiL asciiN root1 GET (sv [47;97;97;47;98;98;47;99;47;100]) = Ok (m, [sv [98;98;47;99;47;100]]) /\ m_id m = mB) /\
  route conv_ok asciiL asciiN root1 GET (sv [47;97;97;58;118]) = Err ENotFound /\
  (exists m, route conv_ok asciiL asciiN root1 (sv [80;85;84]) (sv [47;83;47;66]) = Ok (m, []) /\ m_id m = mB).
Proof. repeat split; try (eexists; split; vm_compute; reflexivity); try (vm_compute; reflexivity). Qed.

(* routing composed with conversion (Proofs/BoundFieldProofs.v) *)
From Larking Require Import Base.B64 Model.Schema Model.Params Model.Transcode Spec.Json3 Proofs.ParamsProofs Proofs.ParamsConvProofs Proofs.BoundFieldProofs.

(* C01, last clause.  For every schema sch, every assignment req of request message types to method
   ids, and every trie with the registration invariant built with the schema's resolution oracle:
   if the request path p is routed to the binding m with captures caps (by a router using ANY
   conversion oracle okconv), then
   - a binding b registered for method m_id m covers the tokens of the normalised path with exactly
     these captures, and the path is b's edge sequence with every variable replaced by "/" and its
     capture (rev caps is template order);
   - every named variable resolves (Params.field_path) in the method's request message, and okconv
     accepted its capture;
   - if okconv implies the schema's convertibility (okconv_of: Params.parse_param succeeds), the
     conversion serveHTTP performs on the path parameters succeeds;
   - whenever that conversion gives ps and params.set ps succeeds on any message M0, then for EVERY
     named variable i, with names ns and capture c: ns resolves to fds, c converts to v, (fds, v) is
     among the parameters, c is a proto3-JSON text of v (bool, the integer kinds, string, enum,
     bytes), and -- if the last field is singular and the variables before i in the template do not
     write into fds (earlier_leave; nothing to ask for the first named variable) -- the message has
     at and under the steps of fds exactly the image of v. *)
Theorem C01_bound_field_is_converted_capture :
  forall (ofloat : bool -> bytes -> option N) (owkt : wkt -> bool -> bytes -> option subtree)
         (sch : schema) (req : str -> option nat) (isLetter isNumber : N -> bool),
  Sane isLetter isNumber ->
  forall okconv L root verb p m caps,
  TrieProofs.Inv isLetter isNumber (resolves_of sch req) L root ->
  Match.route okconv isLetter isNumber root verb p = Ok (m, caps) ->
  exists b es toks,
    In (m_id m, b) L /\ covers_verb (b_verb b) verb /\ m_body m = b_body b /\
    TrieProofs.compiled isLetter isNumber (resolves_of sch req) (m_id m) b es (m_vars m) /\
    lex_path isLetter isNumber (normalise p) = Ok toks /\ MatchEdges es toks caps /\
    fill es (rev caps) = Some (normalise p) /\
    length caps = length (m_vars m) /\
    (forall i ns, nth_error (m_vars m) i = Some ns -> ns <> [] ->
       exists rm fds, req (m_id m) = Some rm /\ field_path sch (req_fields sch rm) ns = Some fds /\ fds <> []) /\
    (forall i ns c, nth_error (m_vars m) i = Some ns -> ns <> [] -> nth_error (rev caps) i = Some c ->
       okconv ns c = true) /\
    forall rm, req (m_id m) = Some rm ->
      ((forall ns c, okconv ns c = true -> okconv_of ofloat owkt sch rm ns c = true) ->
         exists ps, convert_params ofloat owkt sch rm (Match.path_params (m, caps)) = Ok ps) /\
      forall ps M0 M', convert_params ofloat owkt sch rm (Match.path_params (m, caps)) = Ok ps -> params_set ps M0 = Ok M' ->
      forall i ns c, nth_error (m_vars m) i = Some ns -> ns <> [] -> nth_error (rev caps) i = Some c ->
      exists fds v,
        field_path sch (req_fields sch rm) ns = Some fds /\ fds <> [] /\
        parse_param ofloat owkt sch fds c = Ok v /\ In (fds, v) ps /\
        ((exact_kind (f_kind (snd (last_step fds))) = true \/ f_kind (snd (last_step fds)) = KBytes) ->
           json3_text sch (f_kind (snd (last_step fds))) v c) /\
        (singular_last fds -> earlier_leave sch rm (m_vars m) i fds ->
           forall rel, Schema.lookup (steps_path fds ++ rel) M' = Schema.lookup rel (field_image (snd (last_step fds)) v)).
Proof. exact bound_fields_are_converted_captures. Qed.
Print Assumptions C01_bound_field_is_converted_capture.

(* the same without any hypothesis about the other variables: a variable preceded by bare wildcards
   only (the variable of a one-variable template, the first named variable of any template) *)
Theorem C01_bound_field_first_variable :
  forall (ofloat : bool -> bytes -> option N) (owkt : wkt -> bool -> bytes -> option subtree)
         (sch : schema) (req : str -> option nat) (isLetter isNumber : N -> bool),
  Sane isLetter isNumber ->
  forall okconv L root verb p m caps,
  TrieProofs.Inv isLetter isNumber (resolves_of sch req) L root ->
  Match.route okconv isLetter isNumber root verb p = Ok (m, caps) ->
  forall rm ps M0 M', req (m_id m) = Some rm ->
  convert_params ofloat owkt sch rm (Match.path_params (m, caps)) = Ok ps -> params_set ps M0 = Ok M' ->
  forall i ns c, nth_error (m_vars m) i = Some ns -> ns <> [] -> nth_error (rev caps) i = Some c ->
  (forall j nsj, (j < i)%nat -> nth_error (m_vars m) j = Some nsj -> nsj = []) ->
  exists fds v,
    field_path sch (req_fields sch rm) ns = Some fds /\ parse_param ofloat owkt sch fds c = Ok v /\
    ((exact_kind (f_kind (snd (last_step fds))) = true \/ f_kind (snd (last_step fds)) = KBytes) ->
       json3_text sch (f_kind (snd (last_step fds))) v c) /\
    (singular_last fds ->
       forall rel, Schema.lookup (steps_path fds ++ rel) M' = Schema.lookup rel (field_image (snd (last_step fds)) v)).
Proof. exact bound_fields_are_converted_captures_partial. Qed.
Print Assumptions C01_bound_field_first_variable.

(* for the kinds with a grammar the conversion is exact in both directions: the capture converts to
   v iff it is a proto3-JSON text of v *)
Theorem C01_capture_conversion_exact :
  forall (ofloat : bool -> bytes -> option N) (owkt : wkt -> bool -> bytes -> option subtree) sch fds c v,
  fds <> [] -> exact_kind (f_kind (snd (last_step fds))) = true ->
  (parse_param ofloat owkt sch fds c = Ok v <-> json3_text sch (f_kind (snd (last_step fds))) v c).
Proof. exact converted_iff_json3. Qed.
Print Assumptions C01_capture_conversion_exact.

(* what "do not write into" means for two field paths *)
Theorem C01_untouched_meaning : forall fds q,
  untouched fds q = true <->
  (fds = [] \/ exists A st B n q', fds = A ++ st :: B /\ q = steps_path A ++ n :: q' /\
     n <> step_num st /\ ~ In n (sibs (fst st) (snd st))).
Proof. exact untouched_iff_diverge. Qed.
Print Assumptions C01_untouched_meaning.
