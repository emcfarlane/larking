(* C11 -- Dispatch follows the live registration set.
   Model: Model/Registry.v (state, clone, registerService, addConnHandler with the hash short-cut
   and drop-and-recreate, removeHandler, DropConn, pickMethodHandler of larking/mux.go and
   handler.go, over an abstract routing trie: a finite map from binding keys to method names with
   addRule's duplicate check and delRule).
   `trace h` pairs every operation of a history with the value it returned; `live` looks only at
   that trace: a connection is live for m iff its last relevant event (a successful RegisterConn,
   or a DropConn) is a registration whose descriptors expose m; local registrations accumulate.
   `hash_ok h`: the descriptor hash identifies the descriptors among those used in h (SHA-256). *)
From Larking Require Import Base.GoSem Model.Registry Proofs.RegistryProofs.
Local Open Scope nat_scope.

(* the handlers a request for m can be given to (the random pick is any of them) are exactly the
   live backends of m, for every history *)
Theorem C11_dispatch_live : forall h m o, hash_ok h ->
  (In o (candidates (run h) m) <-> In o (live (trace h) m)).
Proof. exact dispatch_live. Qed.
Print Assumptions C11_dispatch_live.

(* a gRPC request is answered Unimplemented iff the method has no live backend; otherwise by a live one *)
Theorem C11_unimplemented_iff_empty : forall h m, hash_ok h ->
  (grpc_replies (run h) m = [Unimplemented] <-> live (trace h) m = []) /\
  (forall r, In r (grpc_replies (run h) m) ->
     (r = Unimplemented /\ live (trace h) m = []) \/ (exists o, r = Served o /\ In o (live (trace h) m))).
Proof. exact unimplemented_iff_empty. Qed.
Print Assumptions C11_unimplemented_iff_empty.

(* no stale routes: a binding present in the trie belongs to a method with a live backend ... *)
Theorem C11_routes_live : forall h n v m, hash_ok h -> route (run h) n v = Some m -> live (trace h) m <> [].
Proof. exact route_live. Qed.
Print Assumptions C11_routes_live.

(* ... so an HTTP request is answered NotFound (no binding) or by a live backend of the bound method,
   never Unimplemented through a left-over binding and never by a dropped connection *)
Theorem C11_routes_follow : forall h n v r, hash_ok h -> In r (http_replies (run h) n v) ->
  (r = NotFound /\ route (run h) n v = None) \/
  (exists m o, route (run h) n v = Some m /\ r = Served o /\ In o (live (trace h) m)).
Proof. exact routes_follow. Qed.
Print Assumptions C11_routes_follow.

(* safe operations.  Dropping a connection that is not registered: false, nothing changes *)
Theorem C11_safe_drop_unknown : forall h c, hash_ok h -> conn_entries (live_table (trace h)) c = [] ->
  step (run h) (DropConn c) = (run h, RFalse).
Proof. exact drop_unknown. Qed.
Print Assumptions C11_safe_drop_unknown.

(* dropping a registered connection: true, and it is removed from every method's candidates *)
Theorem C11_drop_takes_effect : forall h c, hash_ok h -> conn_entries (live_table (trace h)) c <> [] ->
  snd (step (run h) (DropConn c)) = RTrue /\
  forall m o, In o (candidates (fst (step (run h) (DropConn c))) m) <-> In o (candidates (run h) m) /\ o <> OConn c.
Proof. exact drop_known. Qed.
Print Assumptions C11_drop_takes_effect.

(* re-registering an unchanged connection (same descriptors, whatever happened to other
   connections and local services in between): Ok, the routing state is the same *)
Theorem C11_safe_reregister : forall h1 h2 c d,
  snd (step (run h1) (RegConn c d)) = ROk -> (forall o, In o h2 -> touches c o = false) ->
  let mx := run (h1 ++ RegConn c d :: h2) in
  snd (step mx (RegConn c d)) = ROk /\ clone (published (fst (step mx (RegConn c d)))) = clone (published mx).
Proof. exact reregister_unchanged. Qed.
Print Assumptions C11_safe_reregister.

(* a second backend for services whose bindings are all routed already: Ok (no error, no panic),
   routes unchanged, the connection joins the candidates of exactly the methods it exposes *)
Theorem C11_safe_second_backend : forall h c d, hash_ok (h ++ [RegConn c d]) ->
  conn_entries (live_table (trace h)) c = [] ->
  all_bound (spath (clone (published (run h)))) (dmethods d) ->
  snd (step (run h) (RegConn c d)) = ROk /\
  (forall n v, route (fst (step (run h) (RegConn c d))) n v = route (run h) n v) /\
  forall m o, In o (candidates (fst (step (run h) (RegConn c d))) m) <->
              In o (candidates (run h) m) \/ (o = OConn c /\ exposes (dmethods d) m = true).
Proof. exact second_backend. Qed.
Print Assumptions C11_safe_second_backend.

(* every operation leaves the registry in a state that satisfies the refinement invariant; in
   particular a failed or panicking registration publishes nothing *)
Theorem C11_failed_registration_changes_nothing : forall mx o,
  snd (step mx o) = RErr \/ snd (step mx o) = RPanic -> published (fst (step mx o)) = published mx.
Proof.
  intros mx o. destruct o as [l ds|c d|c]; cbn [step].
  - destruct (process _ _ _ _ _) as [r| | |]; cbn [fst snd]; intros [H|H]; try discriminate; reflexivity.
  - destruct (add_conn_handler _ _ _ _) as [r| | |]; cbn [fst snd]; intros [H|H]; try discriminate; reflexivity.
  - destruct (snd (remove_handler _ _)); cbn [fst snd]; intros [H|H]; discriminate.
Qed.
Print Assumptions C11_failed_registration_changes_nothing.

(* when a registration is accepted (rules.go addRule's duplicate check, in either registration order):
   exactly when it is [unobstructed] by the bindings of the published map -- every key valid, and no key
   meets (same node; same verb, or "*" on either side) a key of a different method, in the map or in the
   registration itself.  Bindings are taken from the map, not from the descriptors of the live table: a
   method's rules stand until its last handler goes (RegistryProofs.unobstructed_live_table_insufficient). *)
Theorem C11_accepted_iff_unobstructed : forall h l ds,
  snd (step (run h) (RegLocal l ds)) = ROk <->
  unobstructed_in (trie_keys (spath (clone (published (run h))))) ds = true.
Proof. exact reglocal_ok_iff. Qed.
Print Assumptions C11_accepted_iff_unobstructed.

(* in every published map keys are keys, and bindings that meet belong to one method *)
Theorem C11_published_bindings_consistent : forall h,
  let t := spath (clone (published (run h))) in
  NoDup (map fst t) /\
  forall e1 e2, In e1 t -> In e2 t -> key_meets (entry_key e1) (entry_key e2) = true -> snd e1 = snd e2.
Proof. exact run_wf. Qed.
Print Assumptions C11_published_bindings_consistent.

Definition kA := BKey 11 1 true.
Definition mA1 := MDesc 1 1 [Rule kA []].
Definition mA2 := MDesc 2 2 [].
Definition mB1 := MDesc 3 3 [Rule (BKey 12 2 true) [BKey 13 1 true; BKey 14 1 true]].
Definition mC1 := MDesc 4 4 [Rule (BKey 14 1 true) []].
Definition dA := Desc 1 [mA1; mA2].
Definition dAB := Desc 2 [mA1; mA2; mB1].
Definition dC := Desc 4 [mC1].
Definition hist := [RegConn 0 dA; RegConn 1 dA; RegLocal 0 [mA1; mA2]; DropConn 0; RegConn 1 dAB; RegConn 2 dC; DropConn 1; RegConn 2 dC].

Example hist_hash_ok : hash_ok hist.
Proof.
  intros d d' H H'. cbn in H, H'.
  repeat (destruct H as [<-|H]; [|]); try contradiction;
  repeat (destruct H' as [<-|H']; [|]); try contradiction; cbn; intro E; try reflexivity; discriminate.
Qed.
Example hist_results : map snd (trace hist) = [ROk; ROk; ROk; RTrue; ROk; RErr; RTrue; ROk].
Proof. vm_compute. reflexivity. Qed.
Example hist_candidates :
  candidates (run (firstn 3 hist)) 1 = [OConn 0; OConn 1; OLocal 0] /\
  candidates (run (firstn 4 hist)) 1 = [OConn 1; OLocal 0] /\
  candidates (run (firstn 5 hist)) 3 = [OConn 1] /\
  candidates (run hist) 3 = [] /\ candidates (run hist) 4 = [OConn 2] /\
  live (trace hist) 1 = [OLocal 0] /\ live (trace hist) 4 = [OConn 2] /\
  route (run (firstn 5 hist)) 14 1 = Some 3 /\ route (run hist) 14 1 = Some 4 /\ route (run hist) 13 1 = None.
Proof. vm_compute. repeat split; reflexivity. Qed.
Example second_backend_hypotheses :
  conn_entries (live_table (trace [RegConn 0 dA])) 1 = [] /\
  all_bound (spath (clone (published (run [RegConn 0 dA])))) (dmethods dA).
Proof.
  split; [reflexivity|]. intros d k Hd Hk. cbn in Hd.
  destruct Hd as [<-|[<-|[]]]; cbn in Hk; repeat (destruct Hk as [<-|Hk]; [split; reflexivity|]); contradiction.
Qed.

(* The concrete routing trie under removal.
   The theorems above treat the routing trie as an abstract map of binding keys. The ones below are
   about the trie itself (Model/Trie.v, the structure C01 / C02 / C16 are proved on) and the model of
   path.delRule / path.alive (Model/TrieDel.v: recurse into every literal and variable child, drop a
   child that lost something and is no longer alive, remove the method's per-verb and '*' bindings). *)
From Larking Require Import Model.Lexer Model.Trie Model.Match Model.TrieDel Spec.Grammar Spec.Route
  Proofs.MatchProofs Proofs.TrieProofs Proofs.RoutingProofs Proofs.OrderProofs Proofs.DelProofs.

(* removing a method is the same as never having registered it: the trie built from a list of
   bindings, with one method removed, answers every request -- any verb, any path: same binding, same
   captures, or the same refusal -- exactly as the trie built from the other methods' bindings alone
   (which is itself accepted). No stale route, no lost route, and a less specific rule of another
   method takes over where the removed method's rule used to win. *)
Theorem C11_removal_is_never_registering :
  forall isLetter isNumber resolves body_ok resp_ok okconv name l nd,
  Sane isLetter isNumber -> NoDup l -> Distinct isLetter isNumber resolves l ->
  build_from isLetter isNumber resolves body_ok resp_ok empty_node l = Ok nd ->
  exists nd0, build_from isLetter isNumber resolves body_ok resp_ok empty_node (filter (keepL name) l) = Ok nd0 /\
    forall verb p, Match.route okconv isLetter isNumber (remove_method name nd) verb p =
                   Match.route okconv isLetter isNumber nd0 verb p.
Proof. intros *; intros sane _. now apply removal_is_never_registering. Qed.
Print Assumptions C11_removal_is_never_registering.

(* on ANY trie (no invariant needed): after removal no request is routed to the removed method *)
Theorem C11_removed_never_served : forall isLetter isNumber okconv name nd verb p m caps,
  Match.route okconv isLetter isNumber (remove_method name nd) verb p = Ok (m, caps) -> m_id m <> name.
Proof. exact route_after_del_not_removed. Qed.
Print Assumptions C11_removed_never_served.

(* what is stored after removal is exactly what was stored for other methods, at the same places *)
Theorem C11_removal_content : forall name nd es key m, Uq nd ->
  ((exists i', info_at (fst (del_rule name nd)) es = Some i' /\ stored i' key m) <->
   (exists i, info_at nd es = Some i /\ stored i key m /\ m_id m <> name)).
Proof. exact del_rule_content. Qed.
Print Assumptions C11_removal_content.

(* delRule's boolean: true iff the method had a binding somewhere in the trie *)
Theorem C11_removal_reports : forall name nd, snd (del_rule name nd) = true <-> ~ NoName name nd.
Proof. exact del_rule_ok_iff. Qed.
Print Assumptions C11_removal_reports.

(* over every life cycle -- registrations (failing ones included) and removals in any order, from the
   empty mux -- routing never panics nor runs out of fuel, and no dead node is left behind: every node
   of the trie other than the root is alive and has a binding at or below it *)
Theorem C11_lifecycle_total : forall isLetter isNumber resolves body_ok resp_ok okconv ops verb p,
  MatchProofs.benign (Match.route okconv isLetter isNumber
                        (run_ops isLetter isNumber resolves body_ok resp_ok empty_node ops) verb p).
Proof. exact lifecycle_route_total. Qed.
Print Assumptions C11_lifecycle_total.

Theorem C11_lifecycle_no_dead_nodes : forall isLetter isNumber resolves body_ok resp_ok ops es n,
  Reach (run_ops isLetter isNumber resolves body_ok resp_ok empty_node ops) es n -> es <> [] ->
  alive n = true /\ HasB n.
Proof. exact lifecycle_no_dead. Qed.
Print Assumptions C11_lifecycle_no_dead_nodes.

(* The abstract routing map of the theorems above is what the concrete trie holds (Proofs/RefineProofs.v).
   The registry model above keeps the routes as a finite map from binding keys (node, verb) to method names. The
   concrete trie of larking/rules.go (Model/Trie.v: nodes, literal / variable children, per-verb bindings and the
   '*' binding; Model/TrieDel.v: delRule) refines it: reading the trie through `Abs` (a key names a node by its edge
   path up to the spelling of patterns; the map's value is the method stored there under that verb) commutes with
   every operation. Spec/AbsTrie.v states the map operations generically over the key type; Registry.t_find, t_lookup,
   t_add, t_del, ... are its instance at nat (AbsTrie.RegistryInstance, by reflexivity). *)
From Larking Require Import Model.Trie Model.TrieDel Spec.AbsTrie Proofs.DelProofs Proofs.RefineProofs.

(* one registration of a service (all or nothing) on related states: same verdict, related results *)
Theorem C11_trie_refines_registration :
  forall isLetter isNumber resolves body_ok resp_ok root t ds,
  Good isLetter isNumber resolves root -> Abs root t ->
  Good isLetter isNumber resolves (fst (Trie.register_service resolves body_ok resp_ok isLetter isNumber root ds)) /\
  Abs (fst (Trie.register_service resolves body_ok resp_ok isLetter isNumber root ds))
      (c_register_service t (List.map (abs_decl isLetter isNumber resolves body_ok resp_ok) ds)) /\
  snd (Trie.register_service resolves body_ok resp_ok isLetter isNumber root ds) =
  is_ok (c_register t (List.map (abs_decl isLetter isNumber resolves body_ok resp_ok) ds)).
Proof. exact refine_service. Qed.
Print Assumptions C11_trie_refines_registration.

(* removal of a method's routes on related states *)
Theorem C11_trie_refines_removal : forall isLetter isNumber resolves name root t,
  Good isLetter isNumber resolves root -> Abs root t -> Abs (TrieDel.remove_method name root) (c_del t name).
Proof. exact refine_del. Qed.
Print Assumptions C11_trie_refines_removal.

(* every history of registrations (failing ones included) and removals: the states stay related and every operation
   returns the same verdict on both sides *)
Theorem C11_trie_refines_history : forall isLetter isNumber resolves body_ok resp_ok ops root t,
  Good isLetter isNumber resolves root -> Abs root t ->
  Good isLetter isNumber resolves (DelProofs.run_ops isLetter isNumber resolves body_ok resp_ok root ops) /\
  Abs (DelProofs.run_ops isLetter isNumber resolves body_ok resp_ok root ops) (arun isLetter isNumber resolves body_ok resp_ok t ops) /\
  ctrace isLetter isNumber resolves body_ok resp_ok root ops = atrace isLetter isNumber resolves body_ok resp_ok t ops.
Proof. exact refine_history_exact. Qed.
Print Assumptions C11_trie_refines_history.

(* from the empty mux: which method a key is bound to in the abstract map is exactly what the trie stores there ... *)
Theorem C11_published_map_is_trie_content : forall isLetter isNumber resolves body_ok resp_ok ops es v mid,
  (c_find (arun isLetter isNumber resolves body_ok resp_ok nil ops) (TrieProofs.keys es) v = Some mid <->
   exists i m, TrieProofs.info_at (DelProofs.run_ops isLetter isNumber resolves body_ok resp_ok Trie.empty_node ops) es = Some i /\
               TrieProofs.stored i v m /\ Trie.m_id m = mid).
Proof. exact refine_published_exact. Qed.
Print Assumptions C11_published_map_is_trie_content.

(* ... and a request the trie routes is served by the method the abstract map binds (own verb, else '*') at the node
   the request's path is matched to *)
Theorem C11_routed_method_is_map_binding : forall isLetter isNumber resolves okconv root t verb p m caps,
  Good isLetter isNumber resolves root -> AbsR root t ->
  Match.route okconv isLetter isNumber root verb p = Ok (m, caps) ->
  exists es toks, Lexer.lex_path isLetter isNumber (Match.normalise p) = Ok toks /\ Route.MatchEdges es toks caps /\
                  c_lookup t (TrieProofs.keys es) verb = Some (Trie.m_id m).
Proof. exact refine_route. Qed.
Print Assumptions C11_routed_method_is_map_binding.

(* a looser duplicate check (AbsTrie.a_add_loose) departs from rules.go twice: it accepts a '*' binding at a node
   where another method holds a verb binding (rules.go refuses) and answers "already registered" for a verb binding
   below the method's own '*' (rules.go stores it); harness/c11.go has both situations. *)
Theorem C11_first_registry_model_refuted :
  a_add_loose nat nat nat Nat.eqb Nat.eqb Nat.eqb 0 [(1, 1, 1)] (AKey 1 0 true) 2 = Ok ([(1, 0, 2); (1, 1, 1)], true) /\
  Registry.t_add [(1, 1, 1)] (BKey 1 0 true) 2 = Err EInvalid /\
  a_add_loose nat nat nat Nat.eqb Nat.eqb Nat.eqb 0 [(1, 0, 1)] (AKey 1 1 true) 1 = Ok ([(1, 0, 1)], false) /\
  Registry.t_add [(1, 0, 1)] (BKey 1 1 true) 1 = Ok ([(1, 1, 1); (1, 0, 1)], true).
Proof. vm_compute. repeat split. Qed.
Print Assumptions C11_first_registry_model_refuted.
