(* C20 -- Server mount prefixes are transparent.
   Model: Model/Mount.v  (larking/server.go NewServer, MuxHandleOption, HTTPHandlerOption, TLSCredsOption;
   net/http ServeMux for plain clean absolute path patterns and http.StripPrefix as modelled library).
   Spec evaluated by the harness: Spec/MountSpec.v.  Lemmas: Proofs/MountProofs.v.

   Domain. Patterns are plain clean absolute paths (start with '/', clean, no space, tab, '{', '%'; the
   mount pattern "" is accepted and means "/"). Request paths are clean (cleanPath(p) = p, a trailing
   slash is allowed): net/http answers every other path with a 301 before any handler runs
   (C20_unclean_no_handler). URL.RawPath is empty and the method is not CONNECT.
   A request path under a mount prefix p is p ++ "/" ++ x: a path always begins with '/'.
   net/http picks the longest matching pattern, so with nested mounts (/twirp and /twirp/v2, or "/" and
   /api) and with other handlers registered inside a mount, a path belongs to the longest pattern that
   matches it; and "/p" is redirected to "/p/" when only "/p/" is registered. These two documented
   rules are the hypotheses of C20_transparent; C20_transparent_unnested discharges them for every
   mount that has nothing registered inside its subtree. *)
From Coq Require Import List NArith.
From Larking Require Import Model.Mount Spec.MountSpec Proofs.MountProofs Proofs.MountTlsProofs.
Import ListNotations.

(* A request to prefix+path under a configured mount prefix gets exactly the response the bare mux gives
   for path -- for an arbitrary mux (any function of method, path, headers, body: every protocol at once),
   whatever other handlers are configured. *)
Theorem C20_transparent :
  forall (Meth Hdr Body Resp : Type) (mux : Meth -> list N -> Hdr -> Body -> Resp)
         (extra : nat -> Meth -> list N -> Hdr -> Body -> Resp) (not_found : Resp)
         (redirect redirect_clean : list N -> Resp)
         opts srv m x meth h b,
  new_server false opts = NSOk srv -> In m (s_mounts srv) ->
  let p := mount_prefix m in
  let path := p ++ slash :: x in
  is_clean path = true ->
  (* the mount owns the path: no longer pattern of the configuration matches it ... *)
  (forall q, In q (patterns srv) -> claims q path = true -> length q <= length (p ++ [slash])) ->
  (* ... and the path is not the bare name of another registered subtree *)
  (ends_slash path = false -> ~ In (path ++ [slash]) (patterns srv)) ->
  respond Meth Hdr Body Resp mux extra not_found redirect redirect_clean srv meth path h b
  = mux meth (slash :: x) h b.
Proof.
  intros Meth Hdr Body Resp mux extra not_found redirect redirect_clean opts srv m x meth h b H I p path CL M R.
  unfold respond. pose proof (transparent opts srv m x H I CL M R) as T. cbv zeta in T. subst path p. now rewrite T.
Qed.
Print Assumptions C20_transparent.

(* a mount with nothing else registered inside its subtree is transparent for EVERY clean path under it *)
Theorem C20_transparent_unnested :
  forall (Meth Hdr Body Resp : Type) (mux : Meth -> list N -> Hdr -> Body -> Resp)
         (extra : nat -> Meth -> list N -> Hdr -> Body -> Resp) (not_found : Resp)
         (redirect redirect_clean : list N -> Resp)
         opts srv m x meth h b,
  new_server false opts = NSOk srv -> In m (s_mounts srv) ->
  let p := mount_prefix m in
  (forall q, In q (patterns srv) -> has_prefix (p ++ [slash]) q = true -> q = p ++ [slash]) ->
  is_clean (p ++ slash :: x) = true ->
  respond Meth Hdr Body Resp mux extra not_found redirect redirect_clean srv meth (p ++ slash :: x) h b
  = mux meth (slash :: x) h b.
Proof.
  intros Meth Hdr Body Resp mux extra not_found redirect redirect_clean opts srv m x meth h b H I p U CL.
  unfold respond. pose proof (transparent_unnested opts srv m x H I U CL) as T. cbv zeta in T. subst p. now rewrite T.
Qed.
Print Assumptions C20_transparent_unnested.

(* the same at the level of dispatch: the mux is handed exactly the path without the prefix *)
Theorem C20_transparent_dispatch : forall opts srv m x,
  new_server false opts = NSOk srv -> In m (s_mounts srv) ->
  let p := mount_prefix m in
  let path := p ++ slash :: x in
  is_clean path = true ->
  (forall q, In q (patterns srv) -> claims q path = true -> length q <= length (p ++ [slash])) ->
  (ends_slash path = false -> ~ In (path ++ [slash]) (patterns srv)) ->
  serve srv path = ToMux (slash :: x).
Proof. exact transparent. Qed.
Print Assumptions C20_transparent_dispatch.

(* a path under no mount prefix never reaches the mux *)
Theorem C20_outside_not_served : forall opts srv path,
  new_server false opts = NSOk srv ->
  (forall m, In m (s_mounts srv) -> has_prefix (mount_prefix m ++ [slash]) path = false) ->
  forall x, serve srv path <> ToMux x.
Proof.
  intros opts srv path H N x S. destruct (mux_only_under_mount _ _ _ _ H S) as [m [Im [_ [_ [P _]]]]].
  rewrite (N m Im) in P. discriminate.
Qed.
Print Assumptions C20_outside_not_served.

(* stronger: whatever the mux is handed is a request path minus a configured prefix, begins with '/',
   and the mount that stripped it is the longest pattern matching the request *)
Theorem C20_mux_sees_only_stripped : forall opts srv path x,
  new_server false opts = NSOk srv -> serve srv path = ToMux x ->
  exists m, In m (s_mounts srv) /\ path = mount_prefix m ++ x /\ has_prefix [slash] x = true /\
            has_prefix (mount_prefix m ++ [slash]) path = true /\
            (forall q, In q (patterns srv) -> claims q path = true -> length q <= length (mount_prefix m ++ [slash])).
Proof. exact mux_only_under_mount. Qed.
Print Assumptions C20_mux_sees_only_stripped.

(* handlers added with HTTPHandlerOption keep receiving their patterns, with the path untouched *)
Theorem C20_other_handlers_keep_patterns :
  forall (Meth Hdr Body Resp : Type) (mux : Meth -> list N -> Hdr -> Body -> Resp)
         (extra : nat -> Meth -> list N -> Hdr -> Body -> Resp) (not_found : Resp)
         (redirect redirect_clean : list N -> Resp)
         opts srv i pat path meth h b,
  new_server false opts = NSOk srv -> nth_error opts i = Some (OHandler pat false) ->
  is_clean path = true -> claims pat path = true ->
  (forall q, In q (patterns srv) -> claims q path = true -> length q <= length pat) ->
  (pat = path \/ ends_slash path = true \/ ~ In (path ++ [slash]) (patterns srv)) ->
  respond Meth Hdr Body Resp mux extra not_found redirect redirect_clean srv meth path h b
  = extra i meth path h b.
Proof.
  intros Meth Hdr Body Resp mux extra not_found redirect redirect_clean opts srv i pat path meth h b H N CL C M R.
  unfold respond. now rewrite (extra_keeps_pattern opts srv i pat path H N CL C M R).
Qed.
Print Assumptions C20_other_handlers_keep_patterns.

(* an exact pattern (no trailing slash) receives exactly its path, unconditionally *)
Theorem C20_exact_handler_keeps_path : forall opts srv i pat,
  new_server false opts = NSOk srv -> nth_error opts i = Some (OHandler pat false) ->
  serve srv pat = ToExtra i pat.
Proof. exact extra_exact. Qed.
Print Assumptions C20_exact_handler_keeps_path.

(* ... and they receive nothing else: only paths their own pattern matches, unchanged *)
Theorem C20_other_handlers_see_only_own : forall opts srv path i x,
  new_server false opts = NSOk srv -> serve srv path = ToExtra i x ->
  x = path /\ exists pat, nth_error opts i = Some (OHandler pat false) /\ claims pat path = true.
Proof. exact extra_sees_only_own. Qed.
Print Assumptions C20_other_handlers_see_only_own.

(* prefix+"" : the bare prefix is redirected to prefix+"/" (net/http), unless a handler is registered for it *)
Theorem C20_bare_prefix_redirects : forall opts srv m,
  new_server false opts = NSOk srv -> In m (s_mounts srv) -> mount_prefix m <> [] ->
  ~ In (mount_prefix m) (patterns srv) ->
  serve srv (mount_prefix m) = Redirect (mount_prefix m ++ [slash]).
Proof.
  intros opts srv m H I NE NI. destruct (mount_prefix_clean _ _ _ H I NE) as [A B].
  apply (bare_prefix_redirects opts srv m H I A B NI).
Qed.
Print Assumptions C20_bare_prefix_redirects.

(* the StripPrefix wrappers NewServer installs never miss: net/http's 404 appears only where no pattern matches *)
Theorem C20_not_found_only_unclaimed : forall opts srv path,
  new_server false opts = NSOk srv -> serve srv path = NotFound ->
  forall q, In q (patterns srv) -> claims q path = false.
Proof. exact not_found_unclaimed. Qed.
Print Assumptions C20_not_found_only_unclaimed.

(* outside the domain: an unclean path is redirected, no handler runs *)
Theorem C20_unclean_no_handler : forall srv path, is_clean path = false -> serve srv path = RedirectClean.
Proof. exact unclean_no_handler. Qed.
Print Assumptions C20_unclean_no_handler.

(* validation of options, as the code does it *)
Theorem C20_nil_mux_refused : forall opts, new_server true opts = NSErr ENilMux.
Proof. reflexivity. Qed.
Print Assumptions C20_nil_mux_refused.

(* NewServer accepts exactly: no MuxHandleOption after one that set patterns, no nil handler, all
   registered patterns (other handlers' and prefix+"/" of every mount) valid and pairwise distinct *)
Theorem C20_options_validated : forall opts,
  (exists srv, new_server false opts = NSOk srv) <-> wf_options opts.
Proof. exact accepted_iff_wf. Qed.
Print Assumptions C20_options_validated.

(* an accepted configuration is what was asked for: mounts (default "/"), handlers in call order *)
Theorem C20_accepted_configuration : forall nm opts srv,
  new_server nm opts = NSOk srv ->
  nm = false /\ s_mounts srv = opt_mounts opts /\
  s_tbl srv = map extra_entry (opt_extras opts 0) ++ map mount_entry (opt_mounts opts) /\
  table_ok (s_tbl srv).
Proof. exact new_server_ok. Qed.
Print Assumptions C20_accepted_configuration.

(* the only error NewServer returns for a non-nil mux is the duplicate MuxHandleOption, and only when there is one *)
Theorem C20_refused_only_duplicate : forall opts e,
  new_server false opts = NSErr e -> e = EDupPatterns /\ mux_dup false opts = true.
Proof. exact refused_only_dup. Qed.
Print Assumptions C20_refused_only_duplicate.

Theorem C20_duplicate_never_accepted : forall opts,
  mux_dup false opts = true -> forall srv, new_server false opts <> NSOk srv.
Proof.
  intros opts D srv H. assert (W : wf_options opts) by (apply accepted_iff_wf; exists srv; exact H).
  destruct W as [W _]. congruence.
Qed.
Print Assumptions C20_duplicate_never_accepted.

(* the predicate the harness evaluates on the real server's behaviour holds of the model for every
   accepted configuration and every path *)
Theorem C20_spec_sound : forall opts srv path,
  new_server false opts = NSOk srv ->
  spec_ok (opt_mounts opts) (opt_extras opts 0) path (serve srv path) = true.
Proof. exact spec_sound. Qed.
Print Assumptions C20_spec_sound.

Definition s (l : list nat) : list N := map N.of_nat l.
Definition api := s [47;97;112;105].                       (* "/api" *)
Definition api_slash := s [47;97;112;105;47].              (* "/api/" *)
Definition twirp := s [47;116;119;105;114;112].            (* "/twirp" *)
Definition twirp_v2 := s [47;116;119;105;114;112;47;118;50]. (* "/twirp/v2" *)
Definition metrics := s [47;109;101;116;114;105;99;115].   (* "/metrics" *)
Definition v1_x := s [47;118;49;47;120].                   (* "/v1/x" *)
Definition root := s [47].

(* the configuration of TestMuxHandleOption plus an extra handler, nested mounts *)
Definition cfg := [OHandler metrics false; OMux (Some [root; api_slash; twirp; twirp_v2])].

Example accepted : exists srv, new_server false cfg = NSOk srv /\ length (s_tbl srv) = 5.
Proof. eexists. split; vm_compute; reflexivity. Qed.

Example dispatch_examples :
  run_case false cfg (api ++ v1_x) = ObsResp (ToMux v1_x) /\                    (* /api/v1/x -> /v1/x *)
  run_case false cfg v1_x = ObsResp (ToMux v1_x) /\                             (* under "/" *)
  run_case false cfg (twirp_v2 ++ v1_x) = ObsResp (ToMux v1_x) /\               (* longest mount wins *)
  run_case false cfg (twirp ++ v1_x) = ObsResp (ToMux v1_x) /\
  run_case false cfg (api ++ s [120] ++ v1_x) = ObsResp (ToMux (api ++ s [120] ++ v1_x)) /\  (* /apix/... is under "/" only *)
  run_case false cfg api = ObsResp (Redirect api_slash) /\                      (* bare prefix *)
  run_case false cfg api_slash = ObsResp (ToMux root) /\
  run_case false cfg metrics = ObsResp (ToExtra 0 metrics) /\
  run_case false cfg (s [47;47;120]) = ObsResp RedirectClean /\
  run_case false [OMux (Some [api])] (api ++ s [120] ++ v1_x) = ObsResp NotFound /\   (* string prefix, not segment prefix *)
  run_case false [OMux (Some [api])] v1_x = ObsResp NotFound /\
  run_case false [OMux (Some [api; api_slash])] v1_x = ObsPanic /\             (* same prefix twice: Handle panics *)
  run_case false [OMux (Some [api]); OMux None] v1_x = ObsErr /\
  run_case false [OMux None; OMux (Some [api])] (api ++ v1_x) = ObsResp (ToMux v1_x) /\
  run_case true [] v1_x = ObsErr.
Proof. vm_compute. repeat split; reflexivity. Qed.

(* the hypotheses of C20_transparent are met by a nested configuration: /twirp/v2 under /twirp under "/" *)
Example transparent_hypotheses_met : forall srv, new_server false cfg = NSOk srv ->
  In twirp_v2 (s_mounts srv) /\
  is_clean (mount_prefix twirp_v2 ++ v1_x) = true /\
  (forall q, In q (patterns srv) -> claims q (mount_prefix twirp_v2 ++ v1_x) = true ->
             length q <= length (mount_prefix twirp_v2 ++ [slash])) /\
  (forall q, In q (patterns srv) -> has_prefix (mount_prefix twirp_v2 ++ [slash]) q = true -> q = mount_prefix twirp_v2 ++ [slash]).
Proof.
  intros srv H. vm_compute in H. inversion H; subst; clear H.
  split; [vm_compute; tauto|]. split; [vm_compute; reflexivity|]. split.
  - intros q Iq. vm_compute in Iq. repeat (destruct Iq as [Iq|Iq]; [subst q; vm_compute; intros; try discriminate; auto with arith|]). destruct Iq.
  - intros q Iq. vm_compute in Iq. repeat (destruct Iq as [Iq|Iq]; [subst q; vm_compute; intros; try discriminate; auto|]). destruct Iq.
Qed.

(* ... while "/" is NOT transparent for a path that a nested mount owns: the statement needs its hypothesis *)
Example nested_mount_owns_its_subtree :
  run_case false cfg (api ++ v1_x) <> ObsResp (ToMux (api ++ v1_x)).
Proof. vm_compute. discriminate. Qed.

Example wf_cfg : wf_options cfg.
Proof. apply C20_options_validated. destruct accepted as [srv [H _]]. exists srv. exact H. Qed.

(* A TLS configuration says how the listener is wrapped, not what the handler serves: wherever the option stands, every
   path is answered as by the server built without it -- the mux with the same stripped path, the same 404s and
   redirects, the same extra handler; only that the options behind it are counted one later (rl_obs renumbers
   ToExtra: an extra handler's identity in the model is the position of its option). *)
Theorem C20_tls_option_transparent : forall nm pre post path,
  run_case nm (pre ++ OTLS :: post) path = rl_obs (length pre) (run_case nm (pre ++ post) path).
Proof. exact run_case_tls. Qed.
Print Assumptions C20_tls_option_transparent.

(* in particular what reaches the mux, and with which path, does not depend on it *)
Theorem C20_tls_keeps_mux_requests : forall nm pre post path x,
  run_case nm (pre ++ post) path = ObsResp (ToMux x) <-> run_case nm (pre ++ OTLS :: post) path = ObsResp (ToMux x).
Proof.
  intros nm pre post path x. rewrite run_case_tls.
  destruct (run_case nm (pre ++ post) path) as [| | |r]; cbn [rl_obs]; try (split; discriminate).
  destruct r; cbn [rl_resp]; split; intros H; try discriminate; exact H.
Qed.
Print Assumptions C20_tls_keeps_mux_requests.

Example tls_instance :
  let api := [47;97;112;105;47]%N in let met := [47;109]%N in
  run_case false [OTLS; OMux (Some [api]); OHandler met false] (api ++ [120]%N) = ObsResp (ToMux [47;120]%N) /\
  run_case false [OTLS; OMux (Some [api]); OHandler met false] met = ObsResp (ToExtra 2 met) /\
  run_case false [OMux (Some [api]); OHandler met false] met = ObsResp (ToExtra 1 met) /\
  run_case false [OTLS; OMux (Some [api]); OHandler met false] [47;120]%N = ObsResp NotFound.
Proof. vm_compute. repeat split. Qed.
