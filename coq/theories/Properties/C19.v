(* C19 -- Service-config rules bind exactly the selected methods.
   Model: Model/Selector.v (ruleSelector.setRules / getRules of larking/mux.go after the two fix:
   commits of this property, the service-config part of appendHandler, AddHealthz's selectors).
   Spec: Spec/SelectorSpec.v (covers: equal, "*", or p.* with "p." a prefix of the name).
   Rules are an arbitrary type R with a selector; strings are byte lists; select = setRules followed
   by getRules, the recursion on strings.Cut carried by fuel. *)
From Larking Require Import Base.GoSem Spec.SelectorSpec Model.Selector Proofs.SelectorProofs.
From Coq Require Import Permutation.

(* a rule is returned for a method name iff it was configured and its selector covers the name --
   for every rule list and every name (well-formed: no empty component, '*' only as last component) *)
Theorem C19_bind_iff : forall (R : Type) (sel : R -> str) (rs : list R) (name : str),
  (forall r, In r rs -> wf_sel (sel r) = true) -> wf_name name = true ->
  exists l, select sel rs name = Ok l /\ forall r, In r l <-> In r rs /\ covers (sel r) name.
Proof. intros R sel rs name WS WN. destruct (select_bind R sel rs name WS WN) as [l [E [_ I]]]. eauto. Qed.
Print Assumptions C19_bind_iff.

(* ... with multiplicity: the returned list is a permutation of the configured rules whose selector
   covers the name (a rule configured twice is returned twice, none is duplicated or lost) *)
Theorem C19_bind_multiplicity : forall (R : Type) (sel : R -> str) (rs : list R) (name : str),
  (forall r, In r rs -> wf_sel (sel r) = true) -> wf_name name = true ->
  exists l, select sel rs name = Ok l /\ Permutation l (filter (fun r => covers_b (sel r) name) rs).
Proof. intros R sel rs name WS WN. destruct (select_bind R sel rs name WS WN) as [l [E [P _]]]. eauto. Qed.
Print Assumptions C19_bind_multiplicity.

(* the decision procedure the harness runs is the declarative reading, on strings and on components *)
Theorem C19_covers_decided : forall sel name,
  (covers_b sel name = true <-> covers sel name) /\ (covers sel name <-> covers_cs (split sel) (split name)).
Proof. intros. split; [unfold covers_b; rewrite covers_cs_b_spec; symmetry|]; apply covers_split. Qed.
Print Assumptions C19_covers_decided.

(* the order in which bound rules are added: wildcards from the root down, then the exact selector,
   configuration order within one node *)
Theorem C19_bound_order : forall (R : Type) (sel : R -> str) (rs : list R) (name : str),
  (forall r, In r rs -> wf_sel (sel r) = true) -> wf_name name = true ->
  select sel rs name = Ok (spec_walk R sel rs [] (split name)).
Proof. exact select_order. Qed.
Print Assumptions C19_bound_order.

(* the negative direction spelled out (finding L1): a selector that is not a wildcard binds only the
   method it names -- never the methods below a package or service it names *)
Theorem C19_exact_binds_only_itself : forall (R : Type) (sel : R -> str) (rs : list R) (name : str) l r,
  (forall r, In r rs -> wf_sel (sel r) = true) -> wf_name name = true ->
  select sel rs name = Ok l -> In r l -> last (sel r) 0%N <> 42%N -> sel r = name.
Proof. exact exact_binds_only_itself. Qed.
Print Assumptions C19_exact_binds_only_itself.

(* every input: setRules/getRules return or raise the explicit panic, never run out of fuel;
   the panic is raised iff some selector has a '*' component followed by more than a trailing dot *)
Theorem C19_total : forall (R : Type) (sel : R -> str) (rs : list R) (name : str),
  ((exists l, select sel rs name = Ok l) \/ select sel rs name = Panic PExplicit) /\
  (select sel rs name = Panic PExplicit <->
   exists r a b, In r rs /\ split (sel r) = a ++ star_c :: b /\ rest_nil b = false /\
                 Forall (fun c => is_nil c = false /\ bytes_eqb c star_c = false) a).
Proof. exact select_total_panic_iff. Qed.
Print Assumptions C19_total.

(* every selector, well-formed or not: what setRules makes of it (norm: exact path / wildcard below a
   path, cut at the first empty component) decides which names it is returned for *)
Theorem C19_select_norm : forall (R : Type) (sel : R -> str) (rs : list R) (name : str),
  (forall r, In r rs -> norm (sel r) <> NPanic) -> wf_name name = true ->
  exists l, select sel rs name = Ok l /\
    Permutation l (filter (fun r => ncov_b (norm (sel r)) [] (split name)) rs) /\
    forall r, In r l <-> In r rs /\ ncov (norm (sel r)) (split name).
Proof. exact select_norm. Qed.
Print Assumptions C19_select_norm.

(* once bound, a config rule goes through the same addRule as an annotation: a configuration that
   binds exactly r to the method registers what the annotation r registers (any addRule, any state) *)
Theorem C19_same_as_annotation : forall (R : Type) (sel : R -> str) (St : Type) (add_rule : R -> St -> outcome St)
    (implicit r : R) rs name t s,
  set_rules sel rs = Ok t -> get_rules t name = Ok [r] ->
  append_handler add_rule implicit t name None s = append_handler add_rule implicit empty name (Some r) s.
Proof. intros R sel St add_rule implicit r rs name t s _. now apply append_same_as_annotation. Qed.
Print Assumptions C19_same_as_annotation.

(* AddHealthz: whatever other (well-formed) rules the configuration holds, its two rules are bound
   to exactly Health.Check and Health.Watch *)
Theorem C19_healthz : forall (R : Type) (sel : R -> str) (rs : list R) (hc hw : R) (name : str),
  sel hc = healthz_check -> sel hw = healthz_watch ->
  (forall r, In r rs -> wf_sel (sel r) = true) -> wf_name name = true ->
  exists l, select sel (rs ++ [hc; hw]) name = Ok l /\
    (In hc l <-> name = healthz_check) /\ (In hw l <-> name = healthz_watch).
Proof. exact healthz_bound. Qed.
Print Assumptions C19_healthz.

Definition s_ (l : list nat) : str := map N.of_nat l.
(* "a.S.Me" "a.S" "a" "a.S.*" "a.*" "*" "a.S.Me.*" "ab.*" *)
Definition n_aSMe := s_ [97;46;83;46;77;101].
Definition ex_rules : list (nat * str) :=
  [(0, s_ [97;46;83]); (1, n_aSMe); (2, s_ [97]); (3, s_ [97;46;83;46;42]); (4, s_ [42]);
   (5, s_ [97;46;42]); (6, s_ [97;46;83;46;77;101;46;42]); (7, s_ [97;98;46;42]); (8, n_aSMe)].
Example C19_ex_wf : forallb (fun r => wf_sel (snd r)) ex_rules = true /\ wf_name n_aSMe = true /\
                    wf_name healthz_check = true /\ wf_sel healthz_watch = true.
Proof. repeat split; vm_compute; reflexivity. Qed.
(* bound to a.S.Me: "*", "a.*", "a.S.*", then the two exact rules in configuration order; not the
   package "a", not the service "a.S" (L1), not "a.S.Me.*" (a wildcard needs one more component) *)
Example C19_ex_select : option_map (map fst) (match select snd ex_rules n_aSMe with Ok l => Some l | _ => None end)
                        = Some [4; 5; 3; 1; 8].
Proof. vm_compute. reflexivity. Qed.
(* "*.x" panics; "a..S" is the exact selector "a"; "a.*." is "a.*" *)
Example C19_ex_malformed :
  select snd [(0, s_ [42;46;120])] n_aSMe = Panic PExplicit /\
  norm (s_ [97;46;46;83]) = NExact [s_ [97]] /\ norm (s_ [97;46;42;46]) = NWild [s_ [97]].
Proof. repeat split; vm_compute; reflexivity. Qed.
