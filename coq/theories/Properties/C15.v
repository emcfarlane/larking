(* C15 -- gRPC deadlines reach the handler: the timeout function.
   Model: Model/Timeout.v (decodeTimeout / timeoutUnit of larking/grpc.go); specification: the gRPC
   wire grammar, 1..8 ASCII digits and one unit of H M S m u n, value clamped to the largest Duration.
   The cancellation half of C15 is the run-time's doing (net/http cancels the request context);
   it is observed by the harness on a loopback server, not proved: the claim is partial there. *)
From Larking Require Import Base.GoSem Model.Timeout Proofs.TimeoutProofs Model.TimeoutForward Proofs.TimeoutForwardProofs.
Local Open Scope Z_scope.

(* exactness: a string is accepted iff it is legal, and then the duration is value x unit, clamped *)
Theorem C15_timeout_exact : forall s ns, decode_timeout s = Some ns <-> legal s ns.
Proof. intros s ns. split; [apply decode_timeout_sound|apply decode_timeout_complete]. Qed.
Print Assumptions C15_timeout_exact.

(* every string that is not legal -- empty, unit only, nine or more digits, signs, spaces,
   unknown units, non-digits -- is refused *)
Theorem C15_malformed_refused : forall s, (forall ns, ~ legal s ns) -> decode_timeout s = None.
Proof.
  intros s H. destruct (decode_timeout s) as [ns|] eqn:D; [|reflexivity].
  exfalso. exact (H ns (decode_timeout_sound _ _ D)).
Qed.
Print Assumptions C15_malformed_refused.

(* in particular no accepted string starts with a sign or a space *)
Theorem C15_no_sign : forall s ns c r, decode_timeout s = Some ns -> s = c :: r ->
  c <> 43%N /\ c <> 45%N /\ c <> 32%N.
Proof. intros s ns c r H. apply legal_no_sign with (ns := ns). now apply decode_timeout_sound. Qed.
Print Assumptions C15_no_sign.

(* the int64 multiplication never wraps: an accepted duration is positive-or-zero and at most 2^63-1 *)
Theorem C15_duration_range : forall s ns, decode_timeout s = Some ns -> 0 <= ns <= max_i64.
Proof. exact decode_timeout_range. Qed.
Print Assumptions C15_duration_range.

(* the proxied call (a method served by a backend behind RegisterConn): the handler of the RPC is the backend's, and
   what it is told is the time left on the front call's context, written by grpc-go's EncodeDuration
   (Model/TimeoutForward.v, a library function: modelled, see the trusted base) *)

(* the backend is never told less than the time that was left, and less than one unit (of the unit chosen) more *)
Theorem C15_forwarded_timeout_covers_time_left : forall t, 0 < t ->
  let (v, u) := encode_duration t in t <= v * u < t + u /\ 0 < v.
Proof. exact forwarded_sound. Qed.
Print Assumptions C15_forwarded_timeout_covers_time_left.

(* the value written has at most eight digits (the wire grammar), up to the largest timeout a caller can state *)
Theorem C15_forwarded_value_is_legal : forall t, 0 < t -> t <= max_timeout_value * hour_ns ->
  let (v, _) := encode_duration t in v <= max_timeout_value.
Proof. exact forwarded_value_fits. Qed.
Print Assumptions C15_forwarded_value_is_legal.

(* rounding up never extends the deadline: a call that came with the legal timeout string s (T ns) and has t of it
   left reaches the backend with at most T -- so the backend's handler, too, runs under a deadline at most T after
   receipt of the request by the mux (and, by the theorem above, not before the front call's own deadline) *)
Theorem C15_proxied_deadline_within_callers : forall s T t,
  decode_timeout s = Some T -> T < max_i64 -> 0 < t <= T -> forwarded_ns t <= T.
Proof. exact proxied_deadline_within_callers. Qed.
Print Assumptions C15_proxied_deadline_within_callers.

Example forwarded_instances :
  encode_duration 999500000 = (999500, 1000) /\ encode_duration 99999999 = (99999999, 1) /\
  encode_duration 100000000 = (100000, 1000) /\ encode_duration 0 = (0, 1) /\
  forwarded_ns (99999999 * 3600000000000 - 1000000) <= 99999999 * 3600000000000.
Proof. vm_compute. repeat split; discriminate. Qed.

Example legal_instances :
  decode_timeout [49;83]%N = Some 1000000000 /\                                  (* "1S" *)
  decode_timeout [57;57;57;57;57;57;57;57;72]%N = Some max_i64 /\                (* "99999999H" clamps *)
  decode_timeout [48;48;53;109]%N = Some 5000000 /\                              (* "005m" *)
  decode_timeout [45;53;83]%N = None /\ decode_timeout [83]%N = None /\          (* "-5S", "S" *)
  decode_timeout [49;50;51;52;53;54;55;56;57;110]%N = None.                      (* nine digits *)
Proof. repeat split; reflexivity. Qed.
