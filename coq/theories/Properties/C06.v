(* C06 -- Stream sequence fidelity on every streaming transport.
   Proofs: Proofs/StreamProofs.v.
   Models: Model/StreamHTTP.v (streamHTTP.readMsg / RecvMsg of larking/http.go after the fix of the
   phantom trailing message, on top of Model/Codec.v's ReadNext), Model/GrpcFrame.v
   (streamGRPC.RecvMsg / SendMsg of grpc.go, the gRPC-web bodies of web.go, larking's use of
   gobwas/ws). Meaning: Spec/StreamSpec.v + Spec/Frames.v -- pure parsers of the logical byte
   stream that never mention reads, buffers, carry-over or counters.
   [valid] = "the codec's Unmarshal accepts this frame", [gzip]/[gunzip] = the negotiated
   compressor pair: library behaviour, universally quantified (an inverse pair where needed). *)
From Larking Require Import Base.GoSem Base.Reader Base.B64 Spec.Frames Spec.StreamSpec
  Model.Codec Model.StreamHTTP Model.GrpcFrame Proofs.CodecProofs Proofs.StreamProofs.

(* Iterating the modelled RecvMsg over a request body framed as JSON objects, length-delimited
   protobuf or HttpBody chunks gives the handler exactly the frames the pure parser finds in the
   body, in order, and the same ending (clean end of stream, or the same error class) -- for EVERY
   schedule of read sizes and both ways a reader may report EOF. *)
Theorem C06_http_stream_recv : forall c limit valid body sch eofwd,
  0 < limit -> (N.of_nat limit < 2 ^ 63)%N ->
  let fuel := S (length body) in
  let r := http_recv_all fuel (HCfg c limit true true) valid (hst0 (Src body sch eofwd)) in
  let p := http_stream fuel c limit valid body in
  fst r = map RFrame (fst p) /\ end_rel (snd r) (snd p).
Proof. intros c limit valid body sch eofwd Hl Hi. exact (http_recv_is_parser c limit valid (Src body sch eofwd) Hl Hi). Qed.
Print Assumptions C06_http_stream_recv.

(* The same from any reachable stream state: carry-over buffer, reader and EOF latch together
   stand for the unparsed rest of the body (the invariant that makes the induction go through). *)
Theorem C06_http_recv_invariant : forall fuel cf valid st L,
  streamingClient cf = true -> withBody cf = true -> 0 < hlimit cf -> (N.of_nat (hlimit cf) < 2 ^ 63)%N ->
  hinv st L -> length L < fuel ->
  fst (http_recv_all fuel cf valid st) = map RFrame (fst (http_stream fuel (hcodec cf) (hlimit cf) valid L)) /\
  end_rel (snd (http_recv_all fuel cf valid st)) (snd (http_stream fuel (hcodec cf) (hlimit cf) valid L)).
Proof. exact http_recv_refines. Qed.
Print Assumptions C06_http_recv_invariant.

(* No phantom, dropped, merged, reordered or truncated message: what the client wrote with
   WriteNext is what the parser finds, followed by a clean end ... *)
Theorem C06_parse_encode : forall msgs c limit valid,
  0 < limit -> (N.of_nat limit < 2 ^ 63)%N -> Forall (fits c limit) msgs -> Forall (fun m => valid m = true) msgs ->
  let L := concat (map (write_next c) msgs) in
  http_stream (S (length L)) c limit valid L = (msgs, SClean).
Proof. intros. apply http_stream_roundtrip; auto. Qed.
Print Assumptions C06_parse_encode.

(* ... and therefore what the handler receives, for every schedule. *)
Theorem C06_http_roundtrip : forall c msgs limit valid sch eofwd,
  0 < limit -> (N.of_nat limit < 2 ^ 63)%N -> Forall (fits c limit) msgs -> Forall (fun m => valid m = true) msgs ->
  let L := concat (map (write_next c) msgs) in
  http_recv_all (S (length L)) (HCfg c limit true true) valid (hst0 (Src L sch eofwd)) = (map RFrame msgs, EndClean).
Proof. exact http_recv_roundtrip. Qed.
Print Assumptions C06_http_roundtrip.

(* HttpBody uploads of every length: the chunks concatenate to the upload (no lost or phantom
   byte), none is empty (no phantom chunk when the length is a multiple of the limit), none is
   above the limit; then a clean end. *)
Theorem C06_http_upload : forall limit valid L sch eofwd,
  0 < limit -> (N.of_nat limit < 2 ^ 63)%N ->
  exists chunks,
    http_recv_all (S (length L)) (HCfg CBody limit true true) valid (hst0 (Src L sch eofwd)) = (map RFrame chunks, EndClean) /\
    concat chunks = L /\ Forall (fun m => 0 < length m <= limit) chunks.
Proof. exact http_recv_upload. Qed.
Print Assumptions C06_http_upload.

(* A body cut strictly inside a message (protobuf: anywhere inside prefix or payload; JSON: inside
   an object) yields exactly the complete messages before it, then io.ErrUnexpectedEOF -- for every
   cut offset k, at the parser ... *)
Theorem C06_truncation : forall c limit valid pre m post k,
  0 < limit -> (N.of_nat limit < 2 ^ 63)%N -> Forall (wellformed c limit) pre -> wellformed c limit m ->
  Forall (fun x => valid x = true) pre ->
  length (concat (map (write_next c) pre)) < k < length (concat (map (write_next c) (pre ++ [m]))) ->
  let L := firstn k (concat (map (write_next c) (pre ++ m :: post))) in
  http_stream (S (length L)) c limit valid L = (pre, SErr EUnexpectedEOF).
Proof. exact http_stream_cut_offset. Qed.
Print Assumptions C06_truncation.

(* ... and at the handler, for every schedule. *)
Theorem C06_truncation_recv : forall c limit valid pre m post k sch eofwd,
  0 < limit -> (N.of_nat limit < 2 ^ 63)%N -> Forall (wellformed c limit) pre -> wellformed c limit m ->
  Forall (fun x => valid x = true) pre ->
  length (concat (map (write_next c) pre)) < k < length (concat (map (write_next c) (pre ++ [m]))) ->
  let L := firstn k (concat (map (write_next c) (pre ++ m :: post))) in
  http_recv_all (S (length L)) (HCfg c limit true true) valid (hst0 (Src L sch eofwd)) = (map RFrame pre, EndErr EUnexpectedEOF).
Proof.
  intros c limit valid pre m post k sch eofwd Hl Hi Hw Hm Hv Hk. cbv zeta.
  set (L := firstn k (concat (map (write_next c) (pre ++ m :: post)))).
  destruct (http_recv_is_parser c limit valid (Src L sch eofwd) Hl Hi) as [H1 H2]. cbn [rem] in H1, H2.
  pose proof (http_stream_cut_offset c limit valid pre m post k Hl Hi Hw Hm Hv Hk) as P. cbv zeta in P. fold L in P.
  rewrite P in H1, H2. rewrite (surjective_pairing (http_recv_all _ _ _ _)), H1, (end_rel_err _ _ H2). reflexivity.
Qed.
Print Assumptions C06_truncation_recv.

(* A request without a body is one message built from the parameters, then a clean end; a request
   that is not a client stream is one message: the whole body, when it fits. *)
Theorem C06_http_no_body : forall cf valid s n,
  withBody cf = false -> http_recv_all (S (S n)) cf valid (hst0 s) = ([RParams], EndClean).
Proof. intros cf valid s n H. cbn [http_recv_all]. unfold recv_msg. rewrite !H. cbn. reflexivity. Qed.
Print Assumptions C06_http_no_body.

Theorem C06_http_single_request : forall c limit valid s n, c <> CBody ->
  let r := http_recv_all (S (S n)) (HCfg c limit false true) valid (hst0 s) in
  fst r = map RFrame (fst (single_request limit valid (rem s))) /\ end_rel (snd r) (snd (single_request limit valid (rem s))).
Proof. exact http_recv_single. Qed.
Print Assumptions C06_http_single_request.

(* Iterating the modelled streamGRPC.RecvMsg over a reader that ends normally or with a transport
   error gives exactly the messages of the 5-byte frames the pure parser finds, in order, and ends
   cleanly iff the parser does -- for every schedule, every tail, with or without a decompressor. *)
Theorem C06_grpc_recv : forall limit gunzip valid body t sch eofwd,
  let fuel := S (length body) in
  let r := grpc_recv_all fuel limit gunzip valid (XSrc (Src body sch eofwd) t) in
  let p := grpc_stream fuel limit gunzip valid t body in
  fst r = fst p /\ end_sim (snd r) (snd p).
Proof.
  intros. apply (grpc_recv_refines (S (length body)) limit gunzip valid (XSrc (Src body sch eofwd) t)). cbn. lia.
Qed.
Print Assumptions C06_grpc_recv.

(* gRPC-web: binary bodies are read as they are; text bodies through the base64 decoder, whose
   output is the bytes of the whole quanta followed by a clean end, a cut or a corruption. *)
Theorem C06_web_recv : forall text body sch eofwd limit gunzip valid,
  let x := web_src text body sch eofwd in
  let '(L, t) := if text then web_text_decode body else (body, TClean) in
  fst (grpc_recv_all (S (length L)) limit gunzip valid x) = fst (grpc_stream (S (length L)) limit gunzip valid t L) /\
  end_sim (snd (grpc_recv_all (S (length L)) limit gunzip valid x)) (snd (grpc_stream (S (length L)) limit gunzip valid t L)).
Proof. exact web_recv_refines. Qed.
Print Assumptions C06_web_recv.

Theorem C06_web_text_roundtrip : forall m, Forall (fun b => (b < 256)%N) m ->
  web_text_decode (b64_encode false true m) = (m, TClean).
Proof.
  intros m H. unfold web_text_decode. rewrite filter_b64_encode.
  apply b64_stream_roundtrip; [exact H|]. pose proof (b64_encode_len false true m). lia.
Qed.
Print Assumptions C06_web_text_roundtrip.

(* The frame parser inverts SendMsg's framing (with or without per-message compression, for any
   compressor pair that is an inverse pair): the messages, in order, then a clean end ... *)
Theorem C06_grpc_parse_encode : forall gzip gunzip, (forall m, gunzip (gzip m) = Some m) ->
  forall limit on valid msgs,
  Forall (sendable gzip limit on) msgs -> Forall (fun m => valid m = true) msgs ->
  let L := grpc_send (fst (comp_pair gzip gunzip on)) msgs in
  grpc_stream (S (length L)) limit (snd (comp_pair gzip gunzip on)) valid TClean L = (msgs, SClean).
Proof. exact grpc_stream_sent. Qed.
Print Assumptions C06_grpc_parse_encode.

(* ... and a body cut strictly inside a frame gives the messages before it, then an error. *)
Theorem C06_grpc_truncation : forall gzip gunzip, (forall m, gunzip (gzip m) = Some m) ->
  forall limit on valid pre m j,
  Forall (sendable gzip limit on) pre -> Forall (fun x => valid x = true) pre ->
  (N.of_nat (length (if on then gzip m else m)) < 2 ^ 32)%N ->
  0 < j < length (grpc_send1 (fst (comp_pair gzip gunzip on)) m) ->
  let L := grpc_send (fst (comp_pair gzip gunzip on)) pre ++ firstn j (grpc_send1 (fst (comp_pair gzip gunzip on)) m) in
  exists e, grpc_stream (S (length L)) limit (snd (comp_pair gzip gunzip on)) valid TClean L = (pre, SErr e).
Proof. exact grpc_stream_truncated. Qed.
Print Assumptions C06_grpc_truncation.

(* HTTP: the bytes written for the handler's replies parse back to exactly those replies, then a
   clean end (C06_parse_encode, since http_send = concat of WriteNext). gRPC: exactly one frame per
   reply, in order, nothing else. gRPC-web: the same followed by exactly one trailer frame and
   nothing after it; in text mode the body is one base64 stream of exactly those bytes. *)
Theorem C06_send : forall gzip gunzip, (forall m, gunzip (gzip m) = Some m) ->
  forall out on trailer,
  Forall (small gzip on) out -> (N.of_nat (length trailer) < 2 ^ 32)%N ->
  let enc := fst (comp_pair gzip gunzip on) in
  parse_grpc_resp (S (length (grpc_send enc out))) (grpc_send enc out) = Some (map (wire gzip on) out) /\
  parse_web_resp (S (length (web_resp false enc out true trailer))) (web_resp false enc out true trailer)
    = Some (map (wire gzip on) out, trailer).
Proof.
  intros gzip gunzip Hz out on trailer Hs Ht. cbv zeta. split.
  - apply grpc_resp_frames; auto.
  - unfold web_resp. apply web_resp_frames; auto.
Qed.
Print Assumptions C06_send.

Theorem C06_send_http : forall c out limit,
  0 < limit -> (N.of_nat limit < 2 ^ 63)%N -> Forall (fits c limit) out ->
  let L := http_send c true out in
  parse_all (S (length L)) c limit L = (out, SClean).
Proof. intros. unfold http_send. apply parse_all_roundtrip; auto. Qed.
Print Assumptions C06_send_http.

Theorem C06_send_text : forall gzip gunzip, (forall m, gunzip (gzip m) = Some m) -> forall on out trailer,
  Forall (fun m => Forall (fun b => (b < 256)%N) (snd (wire gzip on m))) out -> Forall (fun b => (b < 256)%N) trailer ->
  b64_decode false true (web_resp true (fst (comp_pair gzip gunzip on)) out true trailer) =
  Some (web_resp false (fst (comp_pair gzip gunzip on)) out true trailer).
Proof. exact web_resp_text. Qed.
Print Assumptions C06_send_text.

(* One data frame per message; a normal close by the client (1000) is a clean end of stream; any
   other close or a connection that just ends is an error after the messages received so far; the
   server sends one data frame per reply and then exactly one close frame carrying the status. *)
Theorem C06_ws : forall valid msgs out code,
  Forall (fun m => valid m = true) msgs ->
  ws_recv_all valid (map WData msgs ++ [WClose 1000]) = (msgs, EndClean) /\
  (exists e, ws_recv_all valid (map WData msgs ++ [WAbort]) = (msgs, EndErr e)) /\
  (forall c, c <> 1000%N -> exists e, ws_recv_all valid (map WData msgs ++ [WClose c]) = (msgs, EndErr e)) /\
  ws_send out code = map WData out ++ [WClose code].
Proof.
  intros valid msgs out code Hv. repeat split.
  - now apply ws_recv_normal_close.
  - apply ws_recv_broken; auto.
  - intros c Hc. apply ws_recv_broken; auto. right. eauto.
Qed.
Print Assumptions C06_ws.

Example c06_wellformed_instances :
  wellformed CJSON 64 [123;34;116;34;58;34;125;34;125]%N /\ wellformed CProto 3 [18;1;97]%N /\ fits CJSON 2 [123;125]%N.
Proof. repeat split; try reflexivity. cbn. lia. Qed.
(* three protobuf messages (one empty) read one byte at a time with EOF on a separate read *)
Example c06_http_instance :
  http_recv_all 20 (HCfg CProto 4 true true) (fun _ => true)
    (hst0 (Src (concat (map (write_next CProto) [[18;1;97]; []; [9]]%N)) [1;1;1;1;1;1;1;1] false))
  = (map RFrame [[18;1;97]; []; [9]]%N, EndClean).
Proof. reflexivity. Qed.
(* the same stream cut inside the first message: nothing is delivered, then an error *)
Example c06_truncated_instance :
  http_recv_all 20 (HCfg CProto 4 true true) (fun _ => true) (hst0 (Src [3;18;1]%N [2;1] true)) = ([], EndErr EUnexpectedEOF).
Proof. reflexivity. Qed.
(* an upload of twice the chunk size: two chunks, no phantom third *)
Example c06_upload_instance :
  http_recv_all 20 (HCfg CBody 2 true true) (fun _ => true) (hst0 (Src [1;2;3;4]%N [4] false))
  = ([RFrame [1;2]; RFrame [3;4]]%N, EndClean).
Proof. reflexivity. Qed.
(* two gRPC frames read in awkward pieces; then the second frame cut after its header *)
Example c06_grpc_instance :
  grpc_recv_all 20 64 None (fun _ => true) (XSrc (Src (gframe 0 [7;8] ++ gframe 0 [])%N [3;1;4;1] true) TClean)
  = ([[7;8]; []]%N, EndClean) /\
  grpc_recv_all 20 64 None (fun _ => true) (XSrc (Src (gframe 0 [7;8] ++ [0;0;0;0;3])%N [5;2;5] false) TClean)
  = ([[7;8]]%N, EndErr EUnexpectedEOF).
Proof. split; reflexivity. Qed.
(* an identity "compressor" is an inverse pair: the hypothesis of the gzip theorems is satisfiable *)
Example c06_pair_instance : forall m : list N, (fun x => Some x) ((fun x : list N => x) m) = Some m.
Proof. reflexivity. Qed.
(* text mode: "AAAAAAEH" is one frame with payload [7]; cut after 6 characters it is an error *)
Example c06_text_instance :
  web_text_decode [65;65;65;65;65;65;69;72]%N = ([0;0;0;0;1;7]%N, TClean) /\
  snd (web_text_decode [65;65;65;65;65;65]%N) = TCut.
Proof. split; reflexivity. Qed.
