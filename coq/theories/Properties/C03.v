(* C03 -- Transcoded request reconstruction: path + query + body rebuild the message.
   Model: Model/Schema.v, Model/Params.v (parseParam, params.set, parseQueryParams),
   Model/Transcode.v (serveHTTP, RecvMsg / decodeRequestArgs); grammar: Spec/Json3.v. *)
From Larking Require Import Base.GoSem Base.B64 Model.Schema Model.Params Model.Transcode Spec.Json3
  Proofs.ParamsProofs Proofs.ParamsConvProofs Proofs.RoundtripProofs.
Local Open Scope N_scope.

(* Round trip.  A client splits a message into captures (pls: field path, text, value, template
   order), query keys with one value each (qls: key, field path, text, value -- the keys in ANY
   order, either spelling, as long as each resolves and each text converts to its value) and a body
   part (any tree, sent through any codec / compressor that are inverse pairs).  If the leaves are
   walkable singular field paths that do not write into each other, the request is served and the
   handler's message M' has: at and under every leaf exactly the image of its value; every parent
   message of a leaf present; everywhere else exactly the body part M0. *)
Theorem C03_roundtrip :
  forall (ofloat : bool -> bytes -> option N) (owkt : wkt -> bool -> bytes -> option subtree)
         (marshal : nat -> nat -> subtree -> bytes) (unmarshal : nat -> nat -> bytes -> option subtree),
  (forall c ty t, unmarshal c ty (marshal c ty t) = Some t) ->
  forall (deflate : bytes -> bytes) (inflate : bytes -> option bytes),
  (forall b, inflate (deflate b) = Some b) ->
  forall sch r pls qls body codec gz M0,
  r_vars r = map (fun l => fst (fst l)) pls ->
  Forall (pleaf_ok ofloat owkt sch) pls ->
  Forall (qleaf_ok ofloat owkt sch (msg_fields sch (r_input r))) qls ->
  (forall p, In p (split_leaves pls qls) -> walkable (fst p) = true /\ singular_last (fst p)) ->
  (forall i j pi pj, i <> j -> nth_error (split_leaves pls qls) i = Some pi -> nth_error (split_leaves pls qls) j = Some pj ->
     untouched (fst pj) (steps_path (fst pi)) = true) ->
  (r_body r = BNone -> body = None) ->
  body_image r body = Ok M0 ->
  exists M', decode_request ofloat owkt unmarshal inflate sch r
               (split_request marshal deflate sch r pls qls body codec gz) = Ok M' /\
    (forall i fds v rel, nth_error (split_leaves pls qls) i = Some (fds, v) ->
       lookup (steps_path fds ++ rel) M' = lookup rel (field_image (snd (last_step fds)) v)) /\
    (forall i fds v p q, nth_error (split_leaves pls qls) i = Some (fds, v) -> steps_path fds = p ++ q -> p <> [] -> q <> [] ->
       lookup p M' = Some EPresent) /\
    (forall q, (forall p, In p (split_leaves pls qls) -> untouched (fst p) q = true) -> lookup q M' = lookup q M0).
Proof. exact roundtrip. Qed.
Print Assumptions C03_roundtrip.

(* params.set alone, for any starting message: the same three facts *)
Theorem C03_params_rebuild : forall leaves,
  (forall p, In p leaves -> fst p <> [] /\ singular_last (fst p)) ->
  (forall i j pi pj, i <> j -> nth_error leaves i = Some pi -> nth_error leaves j = Some pj ->
     untouched (fst pj) (steps_path (fst pi)) = true) ->
  forall M0 M', params_set leaves M0 = Ok M' ->
  (forall i fds v rel, nth_error leaves i = Some (fds, v) ->
     lookup (steps_path fds ++ rel) M' = lookup rel (field_image (snd (last_step fds)) v)) /\
  (forall i fds v p r, nth_error leaves i = Some (fds, v) -> steps_path fds = p ++ r -> p <> [] -> r <> [] ->
     lookup p M' = Some EPresent) /\
  (forall q, (forall p, In p leaves -> untouched (fst p) q = true) -> lookup q M' = lookup q M0).
Proof. exact rebuild. Qed.
Print Assumptions C03_params_rebuild.

(* Conversion is exact for bool, the ten integer kinds, string and enum (by number, by name,
   NullValue): a text is accepted with value v iff the grammar of Spec/Json3.v gives it value v. *)
Theorem C03_conv_exact :
  forall (ofloat : bool -> bytes -> option N) (owkt : wkt -> bool -> bytes -> option subtree) sch k txt v,
  exact_kind k = true ->
  (parse_kind ofloat owkt sch k txt = Ok v <-> json3_text sch k v txt).
Proof. exact conv_exact. Qed.
Print Assumptions C03_conv_exact.

(* bytes: each of the four base64 spellings of every byte string is accepted with that value *)
Theorem C03_bytes_spellings :
  forall (ofloat : bool -> bytes -> option N) (owkt : wkt -> bool -> bytes -> option subtree) sch url pad m,
  Forall (fun b => b < 256) m ->
  parse_kind ofloat owkt sch KBytes (b64_encode url pad m) = Ok (PScalar (SByt m)).
Proof. exact bytes_spellings. Qed.
Print Assumptions C03_bytes_spellings.

(* text that is not a form of the grammar is never accepted as some other value *)
Theorem C03_reject_not_coerce :
  forall (ofloat : bool -> bytes -> option N) (owkt : wkt -> bool -> bytes -> option subtree) sch k txt v,
  (exact_kind k = true \/ k = KBytes) ->
  parse_kind ofloat owkt sch k txt = Ok v -> json3_text sch k v txt.
Proof. exact reject_not_coerce. Qed.
Print Assumptions C03_reject_not_coerce.

(* float / double and the message-typed well-known types: the decoder chosen, the quoting
   decision, a decoder error is an error; every other message type is refused *)
Theorem C03_oracle_kinds :
  forall (ofloat : bool -> bytes -> option N) (owkt : wkt -> bool -> bytes -> option subtree) sch txt,
  parse_kind ofloat owkt sch KFloat txt = match ofloat true txt with Some b => Ok (PScalar (SFlt b)) | None => Err EOther end /\
  parse_kind ofloat owkt sch KDouble txt = match ofloat false txt with Some b => Ok (PScalar (SFlt b)) | None => Err EOther end /\
  forall m, parse_kind ofloat owkt sch (KMessage m) txt =
    match msg_wkt sch m with
    | WNone => Err EOther
    | w => match owkt w (wkt_quoted w && needs_quote txt) txt with Some t => Ok (PMsg t) | None => Err EOther end
    end.
Proof. exact oracle_kinds. Qed.
Print Assumptions C03_oracle_kinds.

Theorem C03_quoting : forall w txt,
  (wkt_quoted w = true <-> (w = WTimestamp \/ w = WDuration \/ w = WBytesValue \/ w = WStringValue \/ w = WFieldMask)) /\
  (needs_quote txt = false <-> (2 <= length txt)%nat /\ hd 0 txt = 34 /\ last txt 0 = 34).
Proof. intros w txt. split; [first [exact (quoted_types w) | exact (quoted_types (fun _ _ => None) w)]|first [exact (needs_quote_spec txt) | exact (needs_quote_spec (fun _ _ => None) txt)]]. Qed.
Print Assumptions C03_quoting.

Definition no_float (_ : bool) (_ : bytes) : option N := None.
Definition no_wkt (_ : wkt) (_ : bool) (_ : bytes) : option subtree := None.
Definition ex_sch := mkSchema [] [mkEnum false [([82;69;68], 1%Z); ([78;69;71], (-1)%Z)]].

Example ex_texts :
  parse_kind no_float no_wkt ex_sch KInt32 [32;45;49;50;10] = Ok (PScalar (SInt (-12))) /\          (* " -12\n" *)
  parse_kind no_float no_wkt ex_sch KInt32 [49;101;50] = Err EOther /\                              (* 1e2 *)
  parse_kind no_float no_wkt ex_sch KInt32 [50;49;52;55;52;56;51;54;52;56] = Err EOther /\          (* 2147483648 *)
  parse_kind no_float no_wkt ex_sch KSfixed32 [50;49;52;55;52;56;51;54;52;55] = Ok (PScalar (SInt 2147483647)) /\
  parse_kind no_float no_wkt ex_sch KUint64 [45;49] = Err EOther /\                                  (* -1 *)
  parse_kind no_float no_wkt ex_sch KUint32 [45;48] = Err EOther /\                                  (* -0 *)
  parse_kind no_float no_wkt ex_sch KInt64 [45;48] = Ok (PScalar (SInt 0)) /\
  parse_kind no_float no_wkt ex_sch KBool [84;82;85;69] = Err EOther /\                              (* TRUE *)
  parse_kind no_float no_wkt ex_sch KBool [116;114;117;101] = Ok (PScalar (SBool true)) /\
  parse_kind no_float no_wkt ex_sch (KEnum 0) [78;69;71] = Ok (PScalar (SEnum (-1))) /\              (* NEG *)
  parse_kind no_float no_wkt ex_sch (KEnum 0) [55] = Ok (PScalar (SEnum 7)) /\
  parse_kind no_float no_wkt ex_sch (KEnum 0) [114;101;100] = Err EOther /\                          (* red *)
  parse_kind no_float no_wkt ex_sch KBytes [45;43] = Err EOther /\                                   (* "-+" mixed alphabets *)
  parse_kind no_float no_wkt ex_sch KBytes [95;119;61;61] = Ok (PScalar (SByt [255])) /\             (* "_w==" *)
  parse_kind no_float no_wkt ex_sch KBytes [47;119] = Ok (PScalar (SByt [255])).                     (* "/w" *)
Proof. vm_compute. repeat split; reflexivity. Qed.

(* the grammar is inhabited: " -12\n" is an int32 text of -12 *)
Example ex_grammar : json3_text ex_sch KInt32 (PScalar (SInt (-12))) [32;45;49;50;10].
Proof.
  exists (-12)%Z. split; [reflexivity|]. split; [|cbn; lia].
  exists [32], [45;49;50], [10]. split; [reflexivity|].
  split; [constructor; [left; reflexivity|constructor]|].
  split; [constructor; [right; right; left; reflexivity|constructor]|].
  apply (ib_neg false 12 [49;50] eq_refl). split; [discriminate|]. split.
  - constructor; [split; cbv; discriminate|]. constructor; [split; cbv; discriminate|constructor].
  - split; [right; cbn; discriminate|reflexivity].
Qed.

(* the hypotheses of the round trip hold for a rule with a nested variable, a query leaf and a body *)
Definition f_name := mkField 1 [110] [110] KString Singular None false.
Definition f_sub := mkField 2 [115] [115] (KMessage 1) Singular None true.
Definition f_id := mkField 3 [105] [73] KInt32 Singular None false.              (* proto name "i", JSON name "I" *)
Definition f_tag := mkField 1 [116] [116] KString Singular None false.
Definition rt_sch := mkSchema [mkMsg WNone [f_name; f_sub; f_id]; mkMsg WNone [f_tag]] [].
Definition rt_root := [f_name; f_sub; f_id].
Definition rt_pls : list pleaf := [([(rt_root, f_sub); ([f_tag], f_tag)], [99;97;112], PScalar (SStr [99;97;112]))].
Definition rt_qls : list qleaf := [([73], [(rt_root, f_id)], [52;50], PScalar (SInt 42))].       (* ?I=42 *)
Definition rt_rule := mkRule 0 [[(rt_root, f_sub); ([f_tag], f_tag)]] BStar.
Example ex_roundtrip_hyps :
  r_vars rt_rule = map (fun l => fst (fst l)) rt_pls /\
  Forall (pleaf_ok no_float no_wkt rt_sch) rt_pls /\
  Forall (qleaf_ok no_float no_wkt rt_sch (msg_fields rt_sch (r_input rt_rule))) rt_qls /\
  (forall p, In p (split_leaves rt_pls rt_qls) -> walkable (fst p) = true /\ singular_last (fst p)) /\
  vars_indep_b (map fst (split_leaves rt_pls rt_qls)) = true /\
  body_image rt_rule (Some [([1], ELeaf (SStr [98]))]) = Ok [([1], ELeaf (SStr [98]))].
Proof.
  repeat split.
  - repeat constructor; cbn; try discriminate.
  - repeat constructor.
  - destruct H as [<-|[<-|[]]]; reflexivity.
  - destruct H as [<-|[<-|[]]]; reflexivity.
Qed.

(* repeated query keys, admissible parameter orders, oneof siblings (Proofs/RoundtripRepProofs.v) *)
From Coq Require Import Permutation.
From Larking Require Import Proofs.RoundtripRepProofs.

(* Round trip with repeated keys.  The client splits a message into captures pls (as in
   C03_roundtrip), query keys qls -- each key with the texts of its values in order of appearance,
   one text for a singular leaf, one per item for a repeated scalar leaf -- and a body part.  If the
   leaves are walkable field paths, pairwise non-touching and coherent (leaves_ok), the request is
   served; the handler's message M' has at a singular leaf exactly the image of its value, at a
   repeated leaf the items of the body part followed by the values of the key in order, every
   parent present, nothing under the oneof siblings of a leaf or of a message on the way, and the
   body part everywhere else; it is the message params.set builds from any admissible list of the
   parameters, and the message of the request with its keys in any other order. *)
Theorem C03_roundtrip_repeated :
  forall (ofloat : bool -> bytes -> option N) (owkt : wkt -> bool -> bytes -> option subtree)
         (marshal : nat -> nat -> subtree -> bytes) (unmarshal : nat -> nat -> bytes -> option subtree),
  (forall c ty t, unmarshal c ty (marshal c ty t) = Some t) ->
  forall (deflate : bytes -> bytes) (inflate : bytes -> option bytes),
  (forall b, inflate (deflate b) = Some b) ->
  forall sch r pls qls body codec gz M0,
  r_vars r = map (fun l => fst (fst l)) pls ->
  Forall (pleaf_ok ofloat owkt sch) pls ->
  Forall (rqleaf_ok ofloat owkt sch (msg_fields sch (r_input r))) qls ->
  (* leaves_ok (split_groups pls qls) *)
  ((forall g, In g (split_groups pls qls) -> walkable (fst g) = true) /\
   (forall i j gi gj, i <> j -> nth_error (split_groups pls qls) i = Some gi -> nth_error (split_groups pls qls) j = Some gj ->
      untouched (fst gj) (steps_path (fst gi)) = true /\ coherent (fst gi) (fst gj))) ->
  (r_body r = BNone -> body = None) ->
  body_image r body = Ok M0 ->
  exists M',
    decode_request ofloat owkt unmarshal inflate sch r (split_request_rep marshal deflate sch r pls qls body codec gz) = Ok M' /\
    (* rebuilt (split_groups pls qls) M0 M' *)
    ((forall i fds vs d rel, nth_error (split_groups pls qls) i = Some (fds, vs) -> singular_last fds -> vs <> [] ->
        lookup (steps_path fds ++ rel) M' = lookup rel (field_image (snd (last_step fds)) (last vs d))) /\
     (forall i fds vs, nth_error (split_groups pls qls) i = Some (fds, vs) -> f_card (snd (last_step fds)) = Repeated ->
        list_at (steps_path fds) M' = list_at (steps_path fds) M0 ++ map item_of vs /\
        (vs <> [] -> lookup (steps_path fds) M' = Some (EList (list_at (steps_path fds) M0 ++ map item_of vs))) /\
        (forall a r, lookup (steps_path fds ++ a :: r) M' = lookup (steps_path fds ++ a :: r) M0)) /\
     (forall i fds vs p r, nth_error (split_groups pls qls) i = Some (fds, vs) -> vs <> [] ->
        steps_path fds = p ++ r -> p <> [] -> r <> [] -> lookup p M' = Some EPresent) /\
     (forall q, (forall g, In g (split_groups pls qls) -> untouched (fst g) q = true) -> lookup q M' = lookup q M0) /\
     (forall i fds vs s rel, nth_error (split_groups pls qls) i = Some (fds, vs) -> singular_last fds -> vs <> [] ->
        In s (sibs (fst (last_step fds)) (snd (last_step fds))) ->
        lookup (removelast (steps_path fds) ++ s :: rel) M' = None) /\
     (forall i A1 st A2 vs s rel, nth_error (split_groups pls qls) i = Some (A1 ++ st :: A2, vs) -> vs <> [] -> A2 <> [] ->
        In s (sibs (fst st) (snd st)) ->
        (lookup (steps_path A1 ++ [step_num st]) M0 = Some EPresent -> lookup (steps_path A1 ++ s :: rel) M0 = None) ->
        lookup (steps_path A1 ++ s :: rel) M' = None)) /\
    (forall l, admissible (split_groups pls qls) l -> exists M'', params_set l M0 = Ok M'' /\ meq M'' M') /\
    (forall qls', Permutation qls qls' -> exists M'',
       decode_request ofloat owkt unmarshal inflate sch r (split_request_rep marshal deflate sch r pls qls' body codec gz) = Ok M'' /\
       meq M'' M').
Proof. exact roundtrip_rep. Qed.
Print Assumptions C03_roundtrip_repeated.

(* params.set alone, from any starting message, for any admissible list of the parameters *)
Theorem C03_params_rebuild_repeated : forall gs,
  (forall g, In g gs -> walkable (fst g) = true) /\
  (forall i j gi gj, i <> j -> nth_error gs i = Some gi -> nth_error gs j = Some gj ->
     untouched (fst gj) (steps_path (fst gi)) = true /\ coherent (fst gi) (fst gj)) ->
  forall l M0 M', admissible gs l -> params_set l M0 = Ok M' -> rebuilt gs M0 M'.
Proof. exact params_rebuild_rep. Qed.
Print Assumptions C03_params_rebuild_repeated.

(* in particular: a repeated leaf the starting message has no entry for holds exactly the values
   of its key, in order *)
Theorem C03_repeated_leaf_exact : forall gs,
  (forall g, In g gs -> walkable (fst g) = true) /\
  (forall i j gi gj, i <> j -> nth_error gs i = Some gi -> nth_error gs j = Some gj ->
     untouched (fst gj) (steps_path (fst gi)) = true /\ coherent (fst gi) (fst gj)) ->
  forall l M0 M' i fds vs, admissible gs l -> params_set l M0 = Ok M' ->
  nth_error gs i = Some (fds, vs) -> f_card (snd (last_step fds)) = Repeated -> vs <> [] ->
  lookup (steps_path fds) M0 = None ->
  lookup (steps_path fds) M' = Some (EList (map item_of vs)).
Proof.
  intros gs Hok l M0 M' i fds vs Ha H Hi C Hv L0.
  destruct (params_rebuild_rep gs Hok l M0 M' Ha H) as [_ [C2 _]].
  destruct (C2 i fds vs Hi C) as [_ [E _]]. rewrite (E Hv). unfold list_at. rewrite L0. reflexivity.
Qed.
Print Assumptions C03_repeated_leaf_exact.

(* Admissible orders.  l is admissible for the leaves gs when its elements can be labelled with
   leaf numbers such that, for every k, the elements labelled k are, in order, the values of leaf
   k at the field path of leaf k: any interleaving of the keys that keeps the occurrences of each
   key in order.  All admissible lists are accepted and build the same message (the same entry at
   every path). *)
Theorem C03_repeated_order_free : forall gs,
  (forall g, In g gs -> walkable (fst g) = true) /\
  (forall i j gi gj, i <> j -> nth_error gs i = Some gi -> nth_error gs j = Some gj ->
     untouched (fst gj) (steps_path (fst gi)) = true /\ coherent (fst gi) (fst gj)) ->
  forall l1 l2 M0,
  (exists tl : list (nat * param), map snd tl = l1 /\
     forall k, filter (fun x => Nat.eqb (fst x) k) tl =
               map (pair k) (match nth_error gs k with Some g => map (fun v => (fst g, v)) (snd g) | None => [] end)) ->
  (exists tl : list (nat * param), map snd tl = l2 /\
     forall k, filter (fun x => Nat.eqb (fst x) k) tl =
               map (pair k) (match nth_error gs k with Some g => map (fun v => (fst g, v)) (snd g) | None => [] end)) ->
  exists M1 M2, params_set l1 M0 = Ok M1 /\ params_set l2 M0 = Ok M2 /\ forall q, lookup q M1 = lookup q M2.
Proof. exact repeated_order_free. Qed.
Print Assumptions C03_repeated_order_free.

(* leaf after leaf with the leaves in any order (what parseQueryParams produces for some iteration
   order of url.Values) is admissible; so is every re-ordering of a labelled admissible list that
   keeps, for every label, the elements with that label in order *)
Theorem C03_admissible_orders : forall gs,
  (forall gs', Permutation gs gs' -> admissible gs (concat (map expand gs'))) /\
  (forall tl tl' : list (nat * param),
     (forall k, occ k tl = map (pair k) (leaf_at gs k)) ->
     (forall k, filter (fun x => Nat.eqb (fst x) k) tl = filter (fun x => Nat.eqb (fst x) k) tl') ->
     admissible gs (map snd tl')).
Proof.
  intros gs. split; [intros gs'; apply admissible_perm|].
  intros tl tl' H S. exists tl'. split; [reflexivity|].
  intros k. rewrite <- H. symmetry. exact (S k).
Qed.
Print Assumptions C03_admissible_orders.

(* Oneof siblings after the round trip: whatever the body part carried under another member of the
   oneof of a singular leaf, nothing is left there; the same for the oneof of a message on the way
   to a leaf (when the body part is a well-formed message: it does not have the member set and
   entries under another member as well). *)
Theorem C03_oneof_sibling_cleared :
  forall (ofloat : bool -> bytes -> option N) (owkt : wkt -> bool -> bytes -> option subtree)
         (marshal : nat -> nat -> subtree -> bytes) (unmarshal : nat -> nat -> bytes -> option subtree),
  (forall c ty t, unmarshal c ty (marshal c ty t) = Some t) ->
  forall (deflate : bytes -> bytes) (inflate : bytes -> option bytes),
  (forall b, inflate (deflate b) = Some b) ->
  forall sch r pls qls body codec gz M0,
  r_vars r = map (fun l => fst (fst l)) pls ->
  Forall (pleaf_ok ofloat owkt sch) pls ->
  Forall (rqleaf_ok ofloat owkt sch (msg_fields sch (r_input r))) qls ->
  leaves_ok (split_groups pls qls) ->
  (r_body r = BNone -> body = None) ->
  body_image r body = Ok M0 ->
  exists M',
    decode_request ofloat owkt unmarshal inflate sch r (split_request_rep marshal deflate sch r pls qls body codec gz) = Ok M' /\
    (forall i fds vs s rel, nth_error (split_groups pls qls) i = Some (fds, vs) -> singular_last fds -> vs <> [] ->
       In s (sibs (fst (last_step fds)) (snd (last_step fds))) ->
       lookup (removelast (steps_path fds) ++ s :: rel) M' = None) /\
    (forall i A1 st A2 vs s rel, nth_error (split_groups pls qls) i = Some (A1 ++ st :: A2, vs) -> vs <> [] -> A2 <> [] ->
       In s (sibs (fst st) (snd st)) ->
       (lookup (steps_path A1 ++ [step_num st]) M0 = Some EPresent -> lookup (steps_path A1 ++ s :: rel) M0 = None) ->
       lookup (steps_path A1 ++ s :: rel) M' = None).
Proof.
  intros ofloat owkt marshal unmarshal Hc deflate inflate Hg sch r pls qls body codec gz M0 Hv Hp Hq Hok Hn Hb.
  destruct (roundtrip_rep ofloat owkt marshal unmarshal Hc deflate inflate Hg sch r pls qls body codec gz M0 Hv Hp Hq Hok Hn Hb)
    as [M' [D [[_ [_ [_ [_ [C5 C6]]]]] _]]].
  exists M'. split; [exact D|]. split; [exact C5|exact C6].
Qed.
Print Assumptions C03_oneof_sibling_cleared.

(* What the hypothesis "non-touching" excludes: two leaves that set, or walk through, two members of
   one oneof (the result depends on the order of the keys: ex_oneof_race), and two leaves with the
   same path -- two spellings of one field, singular or repeated. *)
Theorem C03_oneof_two_members_excluded : forall A1 stA A2 B1 stB B2,
  steps_path A1 = steps_path B1 ->
  In (step_num stB) (sibs (fst stA) (snd stA)) ->
  untouched (A1 ++ stA :: A2) (steps_path (B1 ++ stB :: B2)) = false.
Proof. exact oneof_members_touch. Qed.
Print Assumptions C03_oneof_two_members_excluded.

Theorem C03_two_spellings_excluded : forall A B, A <> [] -> steps_path A = steps_path B -> untouched A (steps_path B) = false.
Proof. exact same_path_touch. Qed.
Print Assumptions C03_two_spellings_excluded.

(* coherence is no restriction for keys resolved by fieldPath in a schema with unique field numbers *)
Theorem C03_field_path_coherent : forall sch,
  (forall m, NoDup (map f_num (msg_fields sch m))) ->
  forall na root nb A B, NoDup (map f_num root) ->
  field_path sch root na = Some A -> field_path sch root nb = Some B -> coherent A B.
Proof. exact field_path_coherent. Qed.
Print Assumptions C03_field_path_coherent.
