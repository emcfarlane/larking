(* C12 -- Registration is atomic with respect to concurrent serving (PARTIAL: proved on a heap
   model under all interleavings of modelled steps; the Go memory model, atomic.Value and
   sync.Mutex are trusted primitives; data-race freedom of the binary is only searched for).
   Model: Model/Snapshot.v -- trie nodes and the two maps of a state at locations of an explicit
   heap; clone copies the snapshot's region to fresh locations; addRule / delRule / the map
   updates of appendHandler and removeHandler are writes that record their location; events:
   EBegin (lock, load, clone), EMut, EStore (last effect of a writer), EAbort (error return
   before the store), ELoad (a request loads once), ERead (it reads one node).
   exec world0 es is the world after ANY schedule es of these events. *)
From Larking Require Import Base.GoSem Model.Registry Model.Snapshot Proofs.SnapshotProofs Gen.SyncSkeleton.
Local Open Scope nat_scope.

(* no event, in any schedule, writes (or allocates) a location that belongs to a snapshot that has
   been stored; and an event changes no location beyond the ones it reports as written *)
Theorem C12_published_immutable : forall es e l s, let w := exec world0 es in
  In l (writes_of w e) -> In s (stored w) -> ~ In l (footprint s).
Proof. exact published_immutable. Qed.
Print Assumptions C12_published_immutable.
Theorem C12_writes_are_all_writes : forall es e x, let w := exec world0 es in
  ~ In x (writes_of w e) -> cell_at (hp (wstep w e)) x = cell_at (hp w) x.
Proof. exact writes_complete. Qed.
Print Assumptions C12_writes_are_all_writes.
(* hence every cell of a stored snapshot keeps its content for ever *)
Theorem C12_snapshot_content_fixed : forall es es' s x, let w := exec world0 es in
  In s (stored w) -> In x (footprint s) -> cell_at (hp (exec w es')) x = cell_at (hp w) x.
Proof. intros es es' s x w. apply snapshot_content_fixed. apply exec_WI. apply WI0. Qed.
Print Assumptions C12_snapshot_content_fixed.

(* all or nothing: only a store changes what is published; whatever a writer does before its
   store -- including giving up on an error -- leaves the published snapshot, the list of stored
   snapshots and every route of the published snapshot as they were *)
Theorem C12_all_or_nothing : forall es es', let w := exec world0 es in ~ In EStore es' ->
  pub (exec w es') = pub w /\ stored (exec w es') = stored w /\
  forall labels verb, route_snap (hp (exec w es')) (pub w) labels verb = route_snap (hp w) (pub w) labels verb.
Proof. intros es es' w. apply invisible_until_store. apply exec_WI. apply WI0. Qed.
Print Assumptions C12_all_or_nothing.
Theorem C12_only_store_publishes : forall w e, pub (wstep w e) <> pub w -> e = EStore.
Proof. exact only_store_publishes. Qed.
Print Assumptions C12_only_store_publishes.

(* linearizable: under every interleaving es2 of writer and reader steps after its load, the
   request that loads after es1 ends with the route of the snapshot published at its load --
   the newest stored one at that moment -- as if evaluated atomically then *)
Theorem C12_linearizable : forall es1 labels verb es2,
  let w1 := exec world0 es1 in
  let w2 := exec (wstep w1 (ELoad labels verb)) es2 in
  answer (hp w2) (nth (length (readers w1)) (readers w2) (RDone None)) = route_snap (hp w1) (pub w1) labels verb /\
  pub w1 = match stored w1 with [] => None | s :: _ => Some s end.
Proof. exact linearizable. Qed.
Print Assumptions C12_linearizable.

(* the discipline the events assume, re-derived from the Go source on every run *)
Theorem C12_skeleton : skeleton_ok = true.
Proof. exact skeleton_ok_true. Qed.
Print Assumptions C12_skeleton.

Definition sched1 : list ev :=
  [EBegin; EMut (MAdd [1; 2] 1 7); EMut (MHandlers [(7, [Handler 0 (OConn 0) 7])]); EStore].
Definition sched2 : list ev :=            (* a second writer adds a route while request 0 is in flight, then a failing writer *)
  [ERead 0; EBegin; EMut (MAdd [1; 3] 1 8); ERead 0; EMut (MDel 7); EStore; ERead 0; ERead 0;
   EBegin; EMut (MDel 8); EAbort; ELoad [1; 3] 1; ERead 1; ERead 1; ERead 1].
Example sched_results :
  let w1 := exec world0 sched1 in
  let w2 := exec (wstep w1 (ELoad [1; 2] 1)) sched2 in
  route_snap (hp w1) (pub w1) [1; 2] 1 = Some 7 /\
  readers w2 = [RDone (Some 7); RDone (Some 8)] /\           (* request 0 still sees the old snapshot *)
  route_snap (hp w2) (pub w2) [1; 2] 1 = None /\ route_snap (hp w2) (pub w2) [1; 3] 1 = Some 8 /\
  length (stored w2) = 2.
Proof. vm_compute. repeat split; reflexivity. Qed.
Example writes_nonempty :
  writes_of (exec world0 (sched1 ++ [EBegin])) (EMut (MAdd [1; 3] 1 8)) <> [] /\
  writes_of (exec world0 (sched1 ++ [EBegin])) (EMut (MDel 7)) <> [].
Proof. vm_compute. split; discriminate. Qed.

(* What the heap model's snapshots MEAN: the abstract routing map of C11 (Proofs/SnapRefineProofs.v).
   A snapshot denotes a finite map from (labels from the root, verb) to method names; the map operations are those
   of Spec/AbsTrie.v (Registry.t_find / t_lookup / t_del are its instance at nat, the concrete trie of rules.go refines
   it: Properties/C11.v). Under ANY schedule the published snapshot denotes the fold, over the empty map, of the
   mutations of the writers that stored, in store order -- aborted writers and the writer in progress contribute
   nothing -- and every route of the published state is that map's lookup (own verb, else '*'). *)
From Larking Require Import Spec.AbsTrie Proofs.SnapRefineProofs.

Theorem C12_published_state_is_map : forall es,
  let w := exec world0 es in
  let t := fold_left amut (committed None es) [] in
  match pub w with
  | Some s => SAbs (hp w) s t /\ SExact (hp w) s t /\ tree (hp w) s
  | None => t = []
  end.
Proof. exact exec_refines. Qed.
Print Assumptions C12_published_state_is_map.

Theorem C12_routes_are_map_lookups : forall es labels verb,
  let w := exec world0 es in
  route_snap (hp w) (pub w) labels verb = s_lookup (fold_left amut (committed None es) []) labels verb.
Proof. exact exec_routes. Qed.
Print Assumptions C12_routes_are_map_lookups.

(* linearizability in terms of the map: a request that loads after es1 is answered by the lookup in the map published
   after es1, whatever is interleaved afterwards *)
Theorem C12_request_sees_published_map : forall es1 labels verb es2,
  let w1 := exec world0 es1 in
  let w2 := exec (wstep w1 (ELoad labels verb)) es2 in
  answer (hp w2) (nth (length (readers w1)) (readers w2) (RDone None)) =
  s_lookup (fold_left amut (committed None es1) []) labels verb.
Proof. exact request_sees_map. Qed.
Print Assumptions C12_request_sees_published_map.

(* state.clone: the copy denotes the same map, and the original still does *)
Theorem C12_clone_preserves_map : forall h s t h' s',
  closed h s -> (forall l, In l (sregion s) -> l < next h) -> clone_snap h (Some s) = (h', s') ->
  SAbs h s t -> SAbs h' s' t /\ SAbs h' s t.
Proof. exact clone_preserves_abs. Qed.
Print Assumptions C12_clone_preserves_map.

(* a limit of the heap model: its MAdd conses the binding onto the node (aset), so an add over a bound
   key shadows instead of replacing, and deleting the newer method resurrects the older binding -- the fold with
   replace-or-insert is NOT what the heap denotes. rules.go never adds over a bound key (addRule stores only after its
   duplicate check found the key free; a Go map assignment would replace); for such guarded writers the two readings
   coincide (SnapRefineProofs.exec_refines_guarded). *)
Theorem C12_heap_add_over_bound_key_shadows_refuted : exists es,
  let w := exec world0 es in
  exists s, pub w = Some s /\ ~ SAbs (hp w) s (fold_left amut_put (committed None es) []) /\
  route_snap (hp w) (pub w) [1] 1 = Some 7 /\ s_lookup (fold_left amut_put (committed None es) []) [1] 1 = None.
Proof. exact exec_refines_put_refuted. Qed.
Print Assumptions C12_heap_add_over_bound_key_shadows_refuted.
