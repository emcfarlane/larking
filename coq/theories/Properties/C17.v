(* C17 -- Stream codec framing is fragmentation-invariant and limit-safe.
   Model: Model/Codec.v (CodecProto / CodecJSON / codecHTTPBody ReadNext and WriteNext of
   larking/codec.go over scheduled readers); meaning: Spec/Frames.v (a parser of the logical byte stream that never
   mentions reads). Limits are positive Go ints, as the mux always passes them. *)
From Larking Require Import Base.GoSem Base.Reader Base.Varint Spec.Frames Model.Codec Proofs.CodecProofs.

(* Every ReadNext call, for every codec, every carried-over buffer b, every remaining input,
   every schedule of read sizes and both EOF styles, reports exactly what the pure parser says
   about the logical stream b ++ rem s: the message is the parser's next frame, the bytes after
   the reported length followed by what the reader still holds are exactly the parser's rest,
   a clean EOF only at a message boundary with nothing lost, an error exactly when the parser
   reports that error; never a panic, never a length outside the returned buffer. *)
Theorem C17_call_refines_parser : forall c b s limit,
  0 < limit -> (N.of_nat limit < 2 ^ 63)%N ->
  refines c limit (b ++ rem s) (read_next c b s limit).
Proof. exact read_next_refines. Qed.
Print Assumptions C17_call_refines_parser.

(* The same fact phrased with the executable predicate that the harness evaluates on what the
   implementation returned (extracted to OCaml): every model result passes it. *)
Theorem C17_call_passes_oracle : forall c b s limit dst n e s',
  0 < limit -> (N.of_nat limit < 2 ^ 63)%N ->
  read_next c b s limit = RRet dst n e s' ->
  obs_ok c limit (b ++ rem s) (rem s') (RObs dst (Z.of_nat n) e) = true.
Proof.
  intros c b s limit dst n e s' H1 H2 H. apply refines_obs_ok. rewrite <- H. now apply read_next_refines.
Qed.
Print Assumptions C17_call_passes_oracle.

(* Round trip: WriteNext then repeated ReadNext with carry := dst[n:] returns the same messages
   in order followed by a clean end, for every schedule and EOF style (protobuf: messages within
   the limit; JSON: texts the brace automaton delimits exactly, see Example below). *)
Theorem C17_roundtrip : forall c msgs limit sch e,
  0 < limit -> (N.of_nat limit < 2 ^ 63)%N -> Forall (fits c limit) msgs ->
  let L := concat (map (write_next c) msgs) in
  recv_all (S (length L)) c limit [] (Src L sch e) = (msgs, EndClean).
Proof. exact recv_all_roundtrip. Qed.
Print Assumptions C17_roundtrip.

(* The reader loop is the schedule-free parser: same messages, same ending, for any stream
   (well-formed or not), any carry-over, any schedule. *)
Theorem C17_loop_is_parser : forall fuel c limit carry s,
  0 < limit -> (N.of_nat limit < 2 ^ 63)%N -> length (carry ++ rem s) < fuel ->
  fst (recv_all fuel c limit carry s) = fst (parse_all fuel c limit (carry ++ rem s)) /\
  end_rel (snd (recv_all fuel c limit carry s)) (snd (parse_all fuel c limit (carry ++ rem s))).
Proof. exact recv_all_parse_all. Qed.
Print Assumptions C17_loop_is_parser.

(* HttpBody uploads: the chunks concatenate to the upload (no lost or phantom byte), each chunk is
   non-empty and within the limit, and the stream ends cleanly -- for every length and schedule. *)
Theorem C17_body_chunks : forall limit L sch e, 0 < limit -> (N.of_nat limit < 2 ^ 63)%N ->
  let r := recv_all (S (length L)) CBody limit [] (Src L sch e) in
  snd r = EndClean /\ concat (fst r) = L /\ Forall (fun m => 0 < length m <= limit) (fst r).
Proof. exact recv_all_body. Qed.
Print Assumptions C17_body_chunks.

(* Limit safety: any decodable length prefix above the limit (1..10 bytes, values >= 2^63
   included) is an error of the size class with n = 0 -- never a truncated message. *)
Theorem C17_proto_limit_safe : forall b s limit v n,
  0 < limit -> (N.of_nat limit < 2 ^ 63)%N ->
  consume_varint (b ++ rem s) = VOk v n -> (N.of_nat limit < v)%N ->
  exists dst s', proto_next b s limit = RRet dst 0 (Some ETooLarge) s'.
Proof. exact proto_limit_safe. Qed.
Print Assumptions C17_proto_limit_safe.

Theorem C17_json_limit_safe : forall b s limit,
  0 < limit -> json_scan limit jst0 (b ++ rem s) 0 = JTooLarge ->
  exists dst s', json_next b s limit = RRet dst 0 (Some ETooLarge) s'.
Proof.
  intros b s limit _ J. apply (refines_err CJSON limit (b ++ rem s)); [apply json_next_refines|].
  cbn [parse]. unfold parse_json. now rewrite J.
Qed.
Print Assumptions C17_json_limit_safe.

Theorem C17_never_crashes : forall c b s limit, 0 < limit -> (N.of_nat limit < 2 ^ 63)%N ->
  match read_next c b s limit with RRet dst n _ _ => n <= length dst | RPanic | RFuel => False end.
Proof. exact read_next_safe. Qed.
Print Assumptions C17_never_crashes.

(* The varint encoder and decoder are inverse on all of uint64. *)
Theorem C17_varint_roundtrip : forall v r, (v < 2 ^ 64)%N ->
  consume_varint (encode_varint v ++ r) = VOk v (length (encode_varint v)).
Proof. exact consume_encode. Qed.
Print Assumptions C17_varint_roundtrip.

Example json_texts_fit :
  fits CJSON 64 [123;34;97;34;58;34;125;92;34;34;125]%N /\
  fits CJSON 2 [123;125]%N /\ fits CProto 3 [1;2;3]%N.
Proof. repeat split; try reflexivity. cbn. lia. Qed.
Example roundtrip_instance :
  recv_all 20 CProto 4 [] (Src (concat (map (write_next CProto) [[1;2;3]; []; [9]]%N)) [1;2;1;1] true)
  = ([[1;2;3]; []; [9]]%N, EndClean).
Proof. reflexivity. Qed.
Example huge_prefix_refused :
  exists dst s', proto_next [] (Src [255;255;255;255;255;255;255;255;255;1;7]%N [3;1] false) 100
                 = RRet dst 0 (Some ETooLarge) s'.
Proof. eexists. eexists. reflexivity. Qed.
