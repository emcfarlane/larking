(* C10 -- Proxying through RegisterConn is transparent.
   Model: Model/Proxy.v (createConnHandler's unary and stream forwarders of larking/mux.go, as
   repaired: backend stream opened before the first message, CloseSend after the pump, no wait for
   the pump once the backend has finished, header/trailer metadata forwarded; client and backend
   as deterministic processes over FIFO channels with half-close marker and final status).
   A schedule is a list of process ids; a process that cannot move is skipped, so every
   interleaving of the four processes (client, backend, handler main loop, pump goroutine) is a
   schedule.  "Resting" (stuck_p / stuck_d) = no process can move: the call has ended or hangs. *)
From Larking Require Import Base.GoSem Model.Proxy Proofs.ProxyProofs.

(* for every script and every interleaving: a resting state of the proxied system has the
   transcript (backend: received messages, end-of-stream, request metadata; client: received
   messages, final code / message / details / header and trailer metadata, or "hangs") of every
   resting state of the direct two-process system *)
Theorem C10_transparent : forall sc (sp : list ppid) (sd : list dpid),
  stuck_p sc (run_p sc sp (init_p sc)) -> stuck_d sc (run_d sc sd (init_d sc)) ->
  transcript_p (run_p sc sp (init_p sc)) = transcript_d sc (run_d sc sd (init_d sc)).
Proof. exact transparent. Qed.
Print Assumptions C10_transparent.

(* stronger: up to the messages held in the handler's two buffers, it is the same state *)
Theorem C10_refinement : forall sc sp sd,
  stuck_p sc (run_p sc sp (init_p sc)) -> stuck_d sc (run_d sc sd (init_d sc)) ->
  abs (run_p sc sp (init_p sc)) = run_d sc sd (init_d sc).
Proof. exact proxy_refines_direct. Qed.
Print Assumptions C10_refinement.

(* every single step of the proxied system, from any reachable state, is a step of the direct
   system or moves a message inside the handler *)
Theorem C10_step_simulated : forall sc p s s', pinv sc s -> step_p sc p s = Some s' ->
  pinv sc s' /\ (abs s' = abs s \/ exists q, step_d sc q (abs s) = Some (abs s')).
Proof. exact sim_step. Qed.
Print Assumptions C10_step_simulated.

(* the reference itself is deterministic: all interleavings of client and backend rest in one state *)
Theorem C10_direct_confluent : forall sc sa sb,
  stuck_d sc (run_d sc sa (init_d sc)) -> stuck_d sc (run_d sc sb (init_d sc)) ->
  run_d sc sa (init_d sc) = run_d sc sb (init_d sc).
Proof.
  intros sc sa sb Ha Hb.
  destruct (run_d_steps sc sa (init_d sc)) as (n & Hn).
  destruct (run_d_steps sc sb (init_d sc)) as (m & Hm).
  eapply steps_d_unique; eauto using dinv_init.
Qed.
Print Assumptions C10_direct_confluent.

(* unary calls in closed form: whatever the interleaving, the backend receives exactly the request
   and the request metadata, the client the reply (if OK) and the backend's status and metadata *)
Theorem C10_unary_transparent : forall req x f reqmd cops sp,
  let sc := unary_script req x f reqmd cops in
  stuck_p sc (run_p sc sp (init_p sc)) ->
  transcript_p (run_p sc sp (init_p sc)) = Transcript [req] false reqmd (if ok f then [x] else []) (Some f).
Proof.
  intros req x f reqmd cops sp sc Hp.
  destruct (unary_direct req x f reqmd cops) as (sd & Hd & Ht).
  fold sc in Hd, Ht. rewrite <- Ht. apply transparent; assumption.
Qed.
Print Assumptions C10_unary_transparent.

(* no deadlock is added: when the proxied system cannot move, the direct system in the
   corresponding state cannot move either (P4: a missing CloseSend would leave the backend able to
   move in the direct system only) *)
Theorem C10_no_stuck : forall sc sp,
  stuck_p sc (run_p sc sp (init_p sc)) -> stuck_d sc (abs (run_p sc sp (init_p sc))).
Proof. intros sc sp H. apply stuck_pres; auto. apply reach_sim. Qed.
Print Assumptions C10_no_stuck.

(* ... hence a call that ends when made directly never hangs through the proxy *)
Theorem C10_no_hang_added : forall sc sp sd,
  stuck_p sc (run_p sc sp (init_p sc)) -> stuck_d sc (run_d sc sd (init_d sc)) ->
  cfin (dcl (run_d sc sd (init_d sc))) <> None -> cfin (pcl (run_p sc sp (init_p sc))) <> None.
Proof.
  intros sc sp sd Hp Hd Hc. pose proof (transparent sc sp sd Hp Hd) as T.
  apply (f_equal t_cfin) in T. cbn in T. rewrite T. exact Hc.
Qed.
Print Assumptions C10_no_hang_added.

(* every interleaving ends: no schedule makes more than measure(init) effective steps, and every
   schedule can be continued to a resting state (so the hypotheses above are met by every script) *)
Theorem C10_bounded : forall sc sched, exists n,
  steps (step_p sc) n (init_p sc) (run_p sc sched (init_p sc)) /\ n <= measure (init_p sc).
Proof.
  intros sc sched.
  destruct (run_p_steps sc sched (init_p sc)) as (n & Hn). exists n. split; [assumption|].
  pose proof (steps_bounded _ _ _ _ Hn). lia.
Qed.
Print Assumptions C10_bounded.
Theorem C10_terminates : forall sc sched, exists more, stuck_p sc (run_p sc (sched ++ more) (init_p sc)).
Proof. exact terminates. Qed.
Print Assumptions C10_terminates.

Definition okfin := Fin 0 [] [] [([120; 45; 104], [[49]])]%N [([120; 45; 116], [[50]])]%N.
Definition nofin := Fin 5 [110; 111]%N [1; 100]%N [] [([120; 45; 116], [[50]])]%N.
Definition rr := [PClient; PBackend; PMain; PPump].
Definition rev_rr := [PPump; PMain; PBackend; PClient].

(* P1: a client stream with no message: the backend sees end-of-stream and its reply arrives *)
Example zero_message_client_stream :
  let sc := Script Cs [] [CClose] [BDrain; BSend [98]%N] okfin [([120; 45; 97], [[118]])]%N in
  is_stuck_p sc (drive_p sc rr 20 (init_p sc)) = true /\
  is_stuck_p sc (drive_p sc rev_rr 20 (init_p sc)) = true /\
  transcript_p (drive_p sc rr 20 (init_p sc)) =
    Transcript [] true [([120; 45; 97], [[118]])]%N [[98]%N] (Some okfin) /\
  transcript_p (drive_p sc rev_rr 20 (init_p sc)) = transcript_p (drive_p sc rr 20 (init_p sc)).
Proof. vm_compute. repeat split. Qed.

(* P4 / failure after half-close: the backend reads to end-of-stream, then fails with details *)
Example fail_after_half_close :
  let sc := Script Bi [] [CSend [1]%N; CSend [2]%N; CClose] [BRecv; BSend [9]%N; BDrain] nofin [] in
  is_stuck_p sc (drive_p sc rr 30 (init_p sc)) = true /\
  transcript_p (drive_p sc rr 30 (init_p sc)) = Transcript [[1]; [2]]%N true [] [[9]%N] (Some nofin) /\
  transcript_p (drive_p sc rev_rr 30 (init_p sc)) = transcript_p (drive_p sc rr 30 (init_p sc)).
Proof. vm_compute. repeat split. Qed.

(* P2: the backend finishes OK while the client, which never half-closes, waits for a reply *)
Example early_ok_without_half_close :
  let sc := Script Bi [] [CSend [1]%N; CRecv; CRecv; CSend [2]%N] [BRecv; BSend [9]%N] okfin [] in
  is_stuck_p sc (drive_p sc rr 30 (init_p sc)) = true /\
  transcript_p (drive_p sc rr 30 (init_p sc)) = Transcript [[1]%N] false [] [[9]%N] (Some okfin) /\
  transcript_d sc (drive_d sc 30 (init_d sc)) = transcript_p (drive_p sc rr 30 (init_p sc)).
Proof. vm_compute. repeat split. Qed.

(* a script on which the direct call hangs (both sides wait): the proxied call hangs in the same way *)
Example deadlock_is_preserved :
  let sc := Script Bi [] [CRecv; CSend [1]%N] [BRecv; BSend [9]%N] okfin [] in
  is_stuck_d sc (drive_d sc 10 (init_d sc)) = true /\ is_stuck_p sc (drive_p sc rr 10 (init_p sc)) = true /\
  t_cfin (transcript_p (drive_p sc rr 10 (init_p sc))) = None /\
  transcript_d sc (drive_d sc 10 (init_d sc)) = transcript_p (drive_p sc rr 10 (init_p sc)).
Proof. vm_compute. repeat split. Qed.
