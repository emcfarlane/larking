(* C14 -- Metadata fidelity between HTTP headers and gRPC metadata.
   Model: Model/Metadata.v (isReservedHeader, isWhitelistedHeader, decodeBinHeader,
   encodeBinHeader, newIncomingContext, setOutgoingHeader of larking/grpc.go; net/http's trailer
   delivery rule is a modelled library fact). *)
From Larking Require Import Base.GoSem Base.B64 Model.Metadata Proofs.MetadataProofs Model.TrailerBlock Proofs.TrailerBlockProofs.

(* the metadata a handler sees is exactly: every non-reserved request header, key lower-cased,
   all values in order, -bin values base64-decoded *)
Theorem C14_incoming_exact : forall h k vs,
  In (k, vs) (incoming h) <->
  exists k0 vs0, In (k0, vs0) h /\ k = lower k0 /\
    (is_reserved k && negb (is_whitelisted k) = false) /\
    vs = (if is_bin k then map (fun v => match decode_bin v with Some b => b | None => [] end) vs0 else vs0).
Proof. exact incoming_exact. Qed.
Print Assumptions C14_incoming_exact.

(* -bin request values decode to the client's bytes whether the client padded them or not *)
Theorem C14_bin_padded : forall m, Forall (fun b => (b < 256)%N) m -> decode_bin (b64_encode false true m) = Some m.
Proof. intros m H. unfold decode_bin. rewrite b64_len_pad. now apply b64_roundtrip. Qed.
Print Assumptions C14_bin_padded.
Theorem C14_bin_unpadded : forall m, Forall (fun b => (b < 256)%N) m -> decode_bin (b64_encode false false m) = Some m.
Proof. exact decode_bin_raw. Qed.
Print Assumptions C14_bin_unpadded.

(* -bin response values are byte-exact for a client that accepts either spelling *)
Theorem C14_outgoing_bin_exact : forall m, Forall (fun b => (b < 256)%N) m -> decode_any (encode_bin m) = Some m.
Proof. exact decode_any_encode_bin. Qed.
Print Assumptions C14_outgoing_bin_exact.

(* no forgery: whatever metadata the handler sets, every protocol-reserved key and every key owned
   by net/http's framing keeps the value the server computed *)
Theorem C14_no_forgery : forall md h k,
  is_reserved (lower k) || is_framing (lower k) = true -> hget k (set_outgoing h md) = hget k h.
Proof.
  intros md h k Hk. apply set_outgoing_untouched. intros [k0 vs0] _ E Eq.
  unfold outgoing_entry in E. cbn [fst] in *. rewrite Eq, Hk in E. now apply E.
Qed.
Print Assumptions C14_no_forgery.

(* every other key the handler sets reaches the response with all its values in order *)
Theorem C14_outgoing_complete : forall md h k vs,
  NoDup (map (fun e => lower (fst e)) md) -> In (k, vs) md ->
  is_reserved (lower k) || is_framing (lower k) = false ->
  hget k (set_outgoing h md) = Some (out_vals k vs).
Proof. exact outgoing_complete. Qed.
Print Assumptions C14_outgoing_complete.

(* trailer metadata written under http.TrailerPrefix is delivered without having been announced *)
Theorem C14_trailers_arrive : forall declared h k vs,
  In (trailer_prefix ++ k, vs) h -> In (k, vs) (delivered_trailers declared h).
Proof.
  intros declared h k vs Hin. unfold delivered_trailers. apply filter_map_in.
  exists (trailer_prefix ++ k, vs). split; [exact Hin|].
  cbn [fst snd]. now rewrite has_prefix_app, skipn_app_exact.
Qed.
Print Assumptions C14_trailers_arrive.

(* the gRPC-web trailer block (Model/TrailerBlock.v): web.go writes the trailers into the body with net/http's
   Header.Write; a gRPC-web client reads that text line by line *)

(* no field can be forged through a value: whatever bytes a handler puts into its trailer values -- line breaks followed
   by "grpc-status: 13" included -- the client reads back exactly the fields that were written, one per value, in order *)
Theorem C14_trailer_block_no_injection : forall l, Forall (fun kv => key_ok (fst kv)) l ->
  parse_block (write_block l) = map (fun kv => Some (fst kv, wire_value (snd kv))) l.
Proof. exact parse_write. Qed.
Print Assumptions C14_trailer_block_no_injection.

(* what travels of a value: no line break ever, and the value itself when it has none and no blank space at its ends *)
Theorem C14_trailer_value_single_line : forall v, forallb (fun c => negb (is_nl c)) (wire_value v) = true.
Proof. exact wire_value_no_nl. Qed.
Print Assumptions C14_trailer_value_single_line.

Theorem C14_trailer_value_faithful : forall v, forallb (fun c => negb (is_nl c)) v = true ->
  match v with c :: _ => is_ws c = false | [] => True end ->
  match rev v with c :: _ => is_ws c = false | [] => True end -> wire_value v = v.
Proof. exact wire_value_id. Qed.
Print Assumptions C14_trailer_value_faithful.

Example forged_trailer_value :   (* x-t: "bye\r\ngrpc-status: 13" arrives as one field "bye  grpc-status: 13" *)
  parse_block (write_block [([120;45;116], [98;121;101;13;10;103;114;112;99;45;115;116;97;116;117;115;58;32;49;51])])%N
  = [Some ([120;45;116], [98;121;101;32;32;103;114;112;99;45;115;116;97;116;117;115;58;32;49;51])%N].
Proof. vm_compute. reflexivity. Qed.

Example reserved_and_framing :
  is_reserved k_grpc_status = true /\ is_framing k_trailer = true /\ is_reserved k_trailer = false /\
  decode_bin (str_of [65;81;61;61]) = Some [1%N] /\ decode_bin (str_of [65;81]) = Some [1%N] /\   (* "AQ==" and "AQ" *)
  is_bin (str_of [120;45;98;105;110]) = true.
Proof. repeat split; reflexivity. Qed.
