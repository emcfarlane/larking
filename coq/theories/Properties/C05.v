(* C05 -- Status and error fidelity on every protocol: the byte-level laws.
   Model: Model/Status.v, Base/Pct.v, Base/B64.v (code.go tables and bounds checks, Twirp names,
   encodeGrpcMessage, gRPC-web frames, base64 text mode, WebSocket close reason). *)
From Larking Require Import Base.GoSem Base.Pct Base.B64 Model.Status Proofs.StatusProofs.

(* every status code a uint32 can hold maps to the reference HTTP status / close code; the table
   lookups never go out of range (no Panic) *)
Theorem C05_http_status_total : forall c, (0 <= c)%Z -> http_status_code c = Ok (ref_http c).
Proof. exact http_status_total. Qed.
Print Assumptions C05_http_status_total.
Theorem C05_ws_status_total : forall c, (0 <= c)%Z -> ws_status_code c = Ok (ref_ws c).
Proof. exact ws_status_total. Qed.
Print Assumptions C05_ws_status_total.

(* grpc-message: what a grpc-go client decodes is exactly the handler's message, for every byte
   string ('%', control bytes, multi-byte UTF-8, any length), and the header value is printable ASCII *)
Theorem C05_grpc_message_roundtrip : forall m, Forall (fun b => (b < 256)%N) m -> pct_decode (pct_encode m) = m.
Proof. exact pct_roundtrip. Qed.
Print Assumptions C05_grpc_message_roundtrip.
Theorem C05_grpc_message_header_safe : forall m, Forall (fun b => (b < 256)%N) m ->
  Forall (fun b => (32 <= b <= 126)%N) (pct_encode m).
Proof. exact pct_header_safe. Qed.
Print Assumptions C05_grpc_message_header_safe.

(* gRPC-web: a body written as reply frames followed by one trailer frame parses back to exactly
   those frames (no lost byte, nothing merged) *)
Theorem C05_frames_roundtrip : forall fs fuel,
  Forall (fun f => (N.of_nat (length (snd f)) < 4294967296)%N) fs ->
  (length (concat (map (fun f => frame (fst f) (snd f)) fs)) < fuel)%nat ->
  parse_frames fuel (concat (map (fun f => frame (fst f) (snd f)) fs)) = Some fs.
Proof. exact parse_frames_roundtrip. Qed.
Print Assumptions C05_frames_roundtrip.

(* gRPC-web-text and the details header: base64 (std or url, padded or raw) decodes to exactly the
   bytes that were encoded, whatever the length mod 3 -- once the encoder has been closed *)
Theorem C05_base64_complete : forall url pad m, Forall (fun b => (b < 256)%N) m ->
  b64_decode url pad (b64_encode url pad m) = Some m.
Proof. exact b64_roundtrip. Qed.
Print Assumptions C05_base64_complete.

(* WebSocket: the close reason is the message as far as a control frame can carry it *)
Theorem C05_ws_close_reason : forall msg,
  (length (ws_reason msg) <= 123)%nat /\ exists r, msg = ws_reason msg ++ r.
Proof.
  intros msg. unfold ws_reason. split; [apply firstn_le_length|]. exists (skipn 123 msg). symmetry. apply firstn_skipn.
Qed.
Print Assumptions C05_ws_close_reason.

Example escapes_everywhere :
  pct_encode [37; 97; 37; 98; 37]%N = [37;50;53;97;37;50;53;98;37;50;53]%N /\        (* "%a%b%" *)
  pct_decode (pct_encode [97; 37; 98; 99]%N) = [97; 37; 98; 99]%N /\                 (* tail after the last escape *)
  http_status_code 17 = Ok 500%Z /\ http_status_code 4294967295 = Ok 500%Z /\ ws_status_code 17 = Ok 1011%Z /\
  b64_decode false true (b64_encode false true [1;2;3;4;5]%N) = Some [1;2;3;4;5]%N.
Proof. repeat split; reflexivity. Qed.
