(* C16 -- Registration accepts valid rules and rejects invalid ones without crashing.
   Model: Model/Lexer.v (lexTemplate), Model/Trie.v (addRule: token walk, field resolution, conflict
   check, body / response_body resolution, additional bindings; appendHandler; registerService).
   Grammar: Spec/Grammar.v (the documented template grammar over tokens, with http.proto's side
   conditions). The protobuf schema is an oracle (which field paths resolve / are usable selectors);
   unicode.IsLetter / IsNumber are parameters (Sane: the grammar's delimiters are neither). *)
From Larking Require Import Base.GoSem Model.Lexer Model.Trie Model.Match Spec.Grammar Spec.Route
  Spec.Template Spec.TemplateAbs
  Proofs.LexerProofs Proofs.MatchProofs Proofs.TrieProofs Proofs.RoutingProofs Proofs.TemplateProofs.
Local Open Scope N_scope.

(* the lexer accepts exactly the grammar: every accepted template is a derivation whose tokens spell
   the template text, at most 64 of them; every derivation of at most 64 tokens is accepted *)
Theorem C16_lexer_exact : forall (isLetter isNumber : N -> bool), Sane isLetter isNumber ->
  forall (t : str) (toks : list token),
  lex_template isLetter isNumber t = Ok toks <->
  Tmpl isLetter isNumber toks /\ spell toks = t /\ (length toks <= 64)%nat.
Proof.
  intros isLetter isNumber sane t toks. split.
  - exact (lex_template_sound isLetter isNumber t toks).
  - intros (HT & Hs & Hl). rewrite <- Hs. exact (lex_template_complete isLetter isNumber sane toks HT Hl).
Qed.
Print Assumptions C16_lexer_exact.

(* the independent, string-splitting template reader of Spec/Template.v -- the oracle that judges the
   real implementation in the correspondence run -- accepts exactly the templates the lexer model
   accepts, and the two read the same structure (AbsT: segments, variables with field path and pattern,
   verb); so "larking accepts what the documentation's grammar describes" is checked against the Go
   code by a reader that shares nothing with the model but is proved to agree with it *)
Theorem C16_oracle_agrees : forall isLetter isNumber, Sane isLetter isNumber -> forall s,
  (forall t, parse_tmpl isLetter isNumber s = Some t ->
     exists toks, lex_template isLetter isNumber s = Ok toks /\ AbsT toks t) /\
  (forall toks, lex_template isLetter isNumber s = Ok toks ->
     exists t, parse_tmpl isLetter isNumber s = Some t /\ AbsT toks t).
Proof. exact template_oracle_agrees_with_lexer. Qed.
Print Assumptions C16_oracle_agrees.

(* ... and, without any assumption on the classifiers, what the reader accepts is a derivation of the
   documented grammar whose tokens spell the text, within the 64-token limit *)
Theorem C16_oracle_sound : forall isLetter isNumber s t,
  parse_tmpl isLetter isNumber s = Some t ->
  exists toks, Tmpl isLetter isNumber toks /\ spell toks = s /\ (length toks <= 64)%nat /\ AbsT toks t.
Proof. exact template_parser_to_grammar. Qed.
Print Assumptions C16_oracle_sound.

(* the lexer never panics and never runs out of fuel, on any text and any classifier *)
Theorem C16_lexer_total : forall isLetter isNumber t, LexerProofs.benign (lex_template isLetter isNumber t).
Proof. exact lex_template_benign. Qed.
Print Assumptions C16_lexer_total.

(* no rule text whatsoever makes the registration of a binding panic or diverge *)
Theorem C16_never_panics : forall isLetter isNumber resolves body_ok resp_ok mid root b,
  MatchProofs.benign (add_binding resolves body_ok resp_ok isLetter isNumber mid root b).
Proof. exact add_binding_benign. Qed.
Print Assumptions C16_never_panics.

(* registering a method never panics and never runs out of fuel, whatever its annotation, the
   service-config rules selected for it and the trie it meets -- also when another method's rule
   already occupies its implicit /Service/Method path (finding R10 as repaired: an error, not panic("bug: ...")) *)
Theorem C16_method_registration_total : forall isLetter isNumber resolves body_ok resp_ok root d,
  MatchProofs.benign (append_handler resolves body_ok resp_ok isLetter isNumber root d).
Proof. exact append_handler_total. Qed.
Print Assumptions C16_method_registration_total.

Theorem C16_reject_malformed : forall isLetter isNumber resolves body_ok resp_ok mid root b,
  ~ tmpl_wf isLetter isNumber (b_tmpl b) ->
  exists e, add_binding resolves body_ok resp_ok isLetter isNumber mid root b = Err e.
Proof. exact reject_malformed. Qed.
Print Assumptions C16_reject_malformed.

Theorem C16_reject_unknown_field : forall isLetter isNumber resolves body_ok resp_ok mid root b toks e,
  lex_template isLetter isNumber (b_tmpl b) = Ok toks -> compile resolves (S (length toks)) mid toks = Err e ->
  add_binding resolves body_ok resp_ok isLetter isNumber mid root b = Err e.
Proof. exact reject_unresolved. Qed.
Print Assumptions C16_reject_unknown_field.

(* (no exception for a pattern the method has already bound: finding R11) *)
Theorem C16_reject_bad_selector : forall isLetter isNumber resolves body_ok resp_ok root mid b es vfs,
  compiled isLetter isNumber resolves mid b es vfs ->
  (match b_body b with BField p => resolves mid p && body_ok mid p | _ => true end) &&
  (match b_resp b with [] => true | p => resp_ok mid p end) = false ->
  exists e, add_binding resolves body_ok resp_ok isLetter isNumber mid root b = Err e.
Proof. exact reject_bad_selector. Qed.
Print Assumptions C16_reject_bad_selector.

Theorem C16_reject_nested_additional : forall isLetter isNumber resolves body_ok resp_ok mid root r a,
  In a (h_adds r) -> b_nested a = true ->
  exists e, add_rule resolves body_ok resp_ok isLetter isNumber mid root r = Err e.
Proof. exact reject_nested. Qed.
Print Assumptions C16_reject_nested_additional.

(* a binding that conflicts with another method's: same place in the trie, overlapping verb *)
Theorem C16_reject_conflict : forall isLetter isNumber resolves body_ok resp_ok L root mid b es vfs i key m,
  Inv isLetter isNumber resolves L root -> compiled isLetter isNumber resolves mid b es vfs ->
  info_at root es = Some i -> stored i key m -> m_id m <> mid -> overlap key (b_verb b) ->
  exists e, add_binding resolves body_ok resp_ok isLetter isNumber mid root b = Err e.
Proof. exact reject_conflict. Qed.
Print Assumptions C16_reject_conflict.

(* a failed registerService publishes nothing: previously registered routes stay exactly as they were *)
Theorem C16_failure_preserves : forall isLetter isNumber resolves body_ok resp_ok root ds root',
  register_service resolves body_ok resp_ok isLetter isNumber root ds = (root', false) -> root' = root.
Proof. exact register_service_failed. Qed.
Print Assumptions C16_failure_preserves.

Theorem C16_accept : forall isLetter isNumber resolves body_ok resp_ok root mid b es vfs,
  compiled isLetter isNumber resolves mid b es vfs -> no_foreign mid (b_verb b) (leaf_of root es) ->
  (match b_body b with BField p => resolves mid p && body_ok mid p | _ => true end = true) ->
  (match b_resp b with [] => true | p => resp_ok mid p end = true) ->
  exists root', add_binding resolves body_ok resp_ok isLetter isNumber mid root b = Ok root'.
Proof. exact accept_binding. Qed.
Print Assumptions C16_accept.

(* ... and afterwards every path its template covers is served, by a method owning a rule that covers
   the request (its own, unless a rule of higher precedence also covers the path) *)
Theorem C16_accepted_routes :
  forall isLetter isNumber resolves body_ok resp_ok okconv, Sane isLetter isNumber ->
  (forall fp t, okconv fp t = true) ->
  forall L root mid b root' es vfs verb p toks caps,
  Inv isLetter isNumber resolves L root ->
  add_binding resolves body_ok resp_ok isLetter isNumber mid root b = Ok root' ->
  compiled isLetter isNumber resolves mid b es vfs -> covers_verb (b_verb b) verb ->
  lex_path isLetter isNumber (normalise p) = Ok toks -> MatchEdges es toks caps ->
  exists m caps', route okconv isLetter isNumber root' verb p = Ok (m, caps') /\
    exists mid' b' es', In (mid', b') ((mid, b) :: L) /\ m_id m = mid' /\ covers_verb (b_verb b') verb /\
      compiled isLetter isNumber resolves mid' b' es' (m_vars m) /\ MatchEdges es' toks caps'.
Proof.
  intros isLetter isNumber resolves body_ok resp_ok okconv sane conv L root mid b root' es vfs verb p toks caps HI Ha Hc Hcov El HM.
  pose proof (Inv_step isLetter isNumber resolves body_ok resp_ok L root mid b root' HI Ha) as HI'.
  destruct (dispatch_complete isLetter isNumber resolves okconv sane conv _ root' verb p mid b es vfs toks caps HI' (or_introl eq_refl) Hcov Hc El HM) as [[m caps'] Hr].
  exists m, caps'. split; [exact Hr|].
  destruct (dispatch_sound isLetter isNumber resolves okconv sane _ root' verb p m caps' HI' Hr) as (mid' & b' & es' & toks' & A & B & C & D & E & F & G).
  rewrite El in F. inversion F; subst toks'. exists mid', b', es'. auto.
Qed.
Print Assumptions C16_accepted_routes.

Definition asciiL (r : N) : bool := ((65 <=? r) && (r <=? 90)) || ((97 <=? r) && (r <=? 122)).
Definition asciiN (r : N) : bool := (48 <=? r) && (r <=? 57).
Example ascii_sane : Sane asciiL asciiN.
Proof. intros r H. cbn in H. repeat (destruct H as [ <- | H ]; [split; reflexivity|]). contradiction. Qed.

Definition s (l : list N) : str := l.
(* "/a/{s1=b/*}/**:get" *)
Definition t_ok : str := s [47;97;47;123;115;49;61;98;47;42;125;47;42;42;58;103;101;116].
Example lex_ok : exists toks, lex_template asciiL asciiN t_ok = Ok toks /\ length toks = 15%nat /\ Tmpl asciiL asciiN toks.
Proof.
  destruct (lex_template asciiL asciiN t_ok) as [toks| | |] eqn:E; try (vm_compute in E; discriminate).
  exists toks. split; [reflexivity|]. split.
  - vm_compute in E. inversion E. reflexivity.
  - exact (proj1 (lex_template_sound asciiL asciiN t_ok toks E)).
Qed.
(* "/a/**/b", "/{s1={s2}}", "/1a", "/a/" are refused; a single-letter literal is fine *)
Example lex_bad :
  lex_template asciiL asciiN (s [47;97;47;42;42;47;98]) = Err EInvalid /\
  lex_template asciiL asciiN (s [47;123;115;49;61;123;115;50;125;125]) = Err EInvalid /\
  lex_template asciiL asciiN (s [47;49;97]) = Err EInvalid /\
  lex_template asciiL asciiN (s [47;97;47]) = Err EInvalid /\
  is_ok (lex_template asciiL asciiN (s [47;97;47;98])) = true.
Proof. repeat split; vm_compute; reflexivity. Qed.

Definition all_ok (_ : str) (_ : list str) := true.
Definition rule1 : brule := {| b_verb := s [71;69;84]; b_tmpl := s [47;97;47;123;115;49;125]; b_body := BNone; b_resp := []; b_nested := false |}.
Definition m1 : str := s [47;83;47;77;49].   (* "/S/M1" *)
Definition m2 : str := s [47;83;47;77;50].
(* the same template for another method under the same verb is refused; under another verb accepted *)
Example conflict_refused :
  exists r1, add_binding all_ok all_ok all_ok asciiL asciiN m1 empty_node rule1 = Ok r1 /\
    add_binding all_ok all_ok all_ok asciiL asciiN m2 r1 rule1 = Err EInvalid /\
    is_ok (add_binding all_ok all_ok all_ok asciiL asciiN m2 r1
             {| b_verb := s [80;85;84]; b_tmpl := b_tmpl rule1; b_body := BStar; b_resp := []; b_nested := false |}) = true.
Proof. eexists. split; [vm_compute; reflexivity|]. split; vm_compute; reflexivity. Qed.
