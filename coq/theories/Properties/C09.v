(* C09 -- Robustness: no request can crash or wedge the server.  PARTIAL (see the end of this comment).

   The family "never Panic, never OutOfFuel", for every modelled function a request reaches, each
   for ALL inputs.  In the models every Go run-time failure is a value (Base/GoSem.v: slice and
   index expressions out of range, nil dereference, Mutable(fd).Message() on a non-message field,
   explicit panic(...) are `Panic`; a loop that may not terminate runs on fuel and ends in
   `OutOfFuel`), so each line below is an obligation about the arithmetic and control flow of the
   anchored code, not a triviality.  The lemmas stand with the property that owns the model
   (C01/C02/C16 routing, C03/C07 decoding, C04 responses, C05 status, C06/C08/C17 streams and limits,
   C15 timeout, C18 events, C19 selectors); Proofs/RobustProofs.v: request decoding, receive loops,
   entry dispatch.

   Entry path -> modelled steps (each total below):
     gRPC-web   Serve.web_pre -> gRPC
     gRPC       Serve.grpc_pre (Timeout.decode_timeout) -> GrpcFrame.grpc_recv1 / Limits gates / Events
     WebSocket  Serve.dispatch -> Lexer.lex_path -> Match.search -> Params -> GrpcFrame.ws_recv_all
     HTTP       Serve.dispatch -> Lexer.lex_path -> Match.search (var_index) -> Params.parse_query ->
                Transcode.decode_request (params_set) -> StreamHTTP / Codec.read_next -> Response.serve_unary
                (Negotiate.parse_accept, Status.http_status_code)
   Registration (not request time, listed because a panic there is a crash too): Lexer.lex_template,
   Trie.add_binding / append_handler, Selector.select.
   Metadata (Model/Metadata.v, C14) and the mount model (Model/Mount.v, C20) have no Panic /
   OutOfFuel constructor in their result types: total by construction.

   PARTIAL: the theorems are about the models; panics inside net/http, protobuf-go, protojson,
   gobwas/ws, compress/gzip, encoding/base64 and in glue that no model covers are looked for by the
   correspondence run (hostile requests under recover() and a watchdog) and by native fuzzing only. *)
From Larking Require Import Base.GoSem Base.Reader Model.Lexer Model.Trie Model.Match Model.Status
  Model.Negotiate Model.Response Model.Timeout Model.Codec Model.GrpcFrame
  Model.Events Model.Serve Spec.StreamSpec Spec.ResponseSpec Spec.Route
  Proofs.LexerProofs Proofs.MatchProofs Proofs.TrieProofs Proofs.RoutingProofs Proofs.StatusProofs
  Proofs.NegotiateProofs Proofs.ResponseProofs Proofs.CodecProofs Proofs.StreamProofs Proofs.LimitsProofs
  Proofs.EventsProofs Proofs.SelectorProofs Proofs.TimeoutProofs Proofs.RobustProofs.
From Larking Require Import Model.Params Model.Transcode.
Local Close Scope Q_scope.
Local Open Scope nat_scope.

(* any text, any classification of runes into letters and numbers *)
Theorem C09_lex_path_total : forall isLetter isNumber p, LexerProofs.benign (lex_path isLetter isNumber p).
Proof. exact lex_path_benign. Qed.
Print Assumptions C09_lex_path_total.

Theorem C09_lex_template_total : forall isLetter isNumber t, LexerProofs.benign (lex_template isLetter isNumber t).
Proof. exact lex_template_benign. Qed.
Print Assumptions C09_lex_template_total.

(* variable.index on the patterns registration stores: never the panic(":(") *)
Theorem C09_var_index_total : forall pat, forallb pat_tok_ok pat = true ->
  forall rest, exists r, var_index pat rest = Ok r.
Proof. exact var_index_total. Qed.
Print Assumptions C09_var_index_total.

(* path.search on any trie satisfying the structural invariant, any token list, fuel = length + 1 *)
Theorem C09_search_total : forall okconv fuel verb nd k toks,
  TrieInv nd k -> length toks < fuel -> MatchProofs.benign (search okconv fuel verb nd toks).
Proof. exact search_total. Qed.
Print Assumptions C09_search_total.

(* Mux.match on every path, every verb, every trie that a history of registerService calls has
   published (any services, any rule texts, accepted or refused, any order), from the empty mux *)
Theorem C09_route_total : forall isLetter isNumber resolves body_ok resp_ok okconv (svcs : list (list mdecl)) verb p,
  MatchProofs.benign (route okconv isLetter isNumber
    (run_services isLetter isNumber resolves body_ok resp_ok empty_node svcs) verb p).
Proof. exact route_published_total. Qed.
Print Assumptions C09_route_total.

Theorem C09_add_binding_total : forall isLetter isNumber resolves body_ok resp_ok mid root b,
  MatchProofs.benign (Trie.add_binding resolves body_ok resp_ok isLetter isNumber mid root b).
Proof. exact add_binding_benign. Qed.
Print Assumptions C09_add_binding_total.

(* appendHandler (registration of one method: implicit rule, selected service-config rules, annotation)
   is total: as repaired for R10 the refused implicit rule is an error, not panic("bug: ...") *)
Theorem C09_append_handler_total : forall isLetter isNumber resolves body_ok resp_ok root d,
  MatchProofs.benign (Trie.append_handler resolves body_ok resp_ok isLetter isNumber root d).
Proof. exact append_handler_total. Qed.
Print Assumptions C09_append_handler_total.

(* setRules / getRules: the only panic is the documented invalid-selector panic, at configuration time *)
Theorem C09_selector_partial : forall (R : Type) (sel : R -> bytes) (rs : list R) (name : bytes),
  ((exists l, Selector.select sel rs name = Ok l) \/ Selector.select sel rs name = Panic PExplicit) /\
  (Selector.select sel rs name = Panic PExplicit <->
   exists r a b, In r rs /\ SelectorSpec.split (sel r) = a ++ SelectorSpec.star_c :: b /\ SelectorProofs.rest_nil b = false /\
                 Forall (fun c => is_nil c = false /\ bytes_eqb c SelectorSpec.star_c = false) a).
Proof. exact select_total_panic_iff. Qed.
Print Assumptions C09_selector_partial.

(* parseParam: every field kind, every text, whatever the float / well-known-type oracles answer *)
Theorem C09_parse_param_total : forall ofloat owkt sch fds raw, no_crash (parse_param ofloat owkt sch fds raw).
Proof. exact parse_param_no_crash. Qed.
Print Assumptions C09_parse_param_total.

(* parseQueryParams: every raw query -- unknown keys, dotted keys through scalar / repeated / map
   fields, repeated keys, any values -- and every parameter it returns can be applied (next theorem) *)
Theorem C09_parse_query_total : forall ofloat owkt sch root q,
  no_crash (parse_query ofloat owkt sch root q) /\
  forall ps, parse_query ofloat owkt sch root q = Ok ps -> forall p, In p ps -> chained (fst p) = true.
Proof. exact parse_query_spec. Qed.
Print Assumptions C09_parse_query_total.

(* params.set on parameters whose field paths come from fieldPath: after the fix of T3 a repeated or
   map field on the way is an error; no path makes Mutable(fd).Message() panic *)
Theorem C09_params_set_total : forall ps M, (forall p, In p ps -> chained (fst p) = true) -> no_crash (params_set ps M).
Proof. exact params_set_no_crash. Qed.
Print Assumptions C09_params_set_total.

(* serveHTTP up to the handler's first message: captures, query, Content-Encoding, body into the whole
   message or the body field, parameters -- for every request, against every rule addRule accepts *)
Theorem C09_decode_request_total : forall ofloat owkt unmarshal inflate sch r rq, rule_ok r ->
  no_crash (decode_request ofloat owkt unmarshal inflate sch r rq).
Proof. exact decode_request_no_crash. Qed.
Print Assumptions C09_decode_request_total.

(* ... and the hypothesis is what the fix of T4 enforces at registration: with a body selector through
   a scalar field the model panics on the first request with a body *)
Theorem C09_decode_request_refuted_without_rule_ok : exists ofloat owkt unmarshal inflate sch r rq,
  decode_request ofloat owkt unmarshal inflate sch r rq = Panic PKind.
Proof. do 7 eexists. exact decode_request_bad_selector_panics. Qed.
Print Assumptions C09_decode_request_refuted_without_rule_ok.

(* the code tables: every code a uint32 can hold (17, 2^32-1, ...) *)
Theorem C09_http_status_total : forall c, (0 <= c)%Z -> http_status_code c = Ok (ref_http c).
Proof. exact http_status_total. Qed.
Print Assumptions C09_http_status_total.
Theorem C09_ws_status_total : forall c, (0 <= c)%Z -> ws_status_code c = Ok (ref_ws c).
Proof. exact ws_status_total. Qed.
Print Assumptions C09_ws_status_total.

(* parseAccept on any header values: returns, with non-negative q-values *)
Theorem C09_parse_accept_total : forall values : list bytes,
  no_crash (parse_accept values) /\ exists specs, parse_accept values = Ok specs /\ nonneg specs.
Proof. exact parse_accept_total_hdr. Qed.
Print Assumptions C09_parse_accept_total.

(* the unary send path and encError: negotiation, getCodec, response_body walk, marshal, writeAll, the
   error body -- for every Accept / Accept-Encoding / Content-Type; the codec table is sane (the
   internal HttpBody codec only under its own name, JSON present, codecs return) and response_body
   names message fields (enforced at registration) *)
Theorem C09_send_total : forall (msg field : Type) (get_msg : field -> msg -> option msg)
    (full_name body_ct body_data : msg -> bytes) (marshal : Response.codec -> msg -> outcome bytes)
    (marshal_status : Response.codec -> N -> outcome bytes) (compress : bytes -> bytes -> bytes) (cfg : Response.config)
    (reqct : option bytes) (accept accept_enc : list bytes) (has_body : bool) (reqcur : msg)
    (path : list field) (reply cur : msg),
  sane msg marshal marshal_status cfg -> ResponseSpec.select msg field get_msg path reply = Some cur ->
  no_crash (serve_unary msg field get_msg full_name body_ct body_data marshal marshal_status compress cfg
              reqct accept accept_enc has_body reqcur path reply).
Proof. exact serve_unary_no_crash. Qed.
Print Assumptions C09_send_total.

(* decodeTimeout: any header value is refused or yields a duration in [0, 2^63-1] *)
Theorem C09_decode_timeout_total : forall s,
  decode_timeout s = None \/ exists ns, decode_timeout s = Some ns /\ (0 <= ns <= max_i64)%Z.
Proof.
  intros s. destruct (decode_timeout s) as [ns|] eqn:E; [right|now left].
  exists ns. split; [reflexivity|exact (decode_timeout_range s ns E)].
Qed.
Print Assumptions C09_decode_timeout_total.

(* the three stream codecs: any carry-over, any data, any read schedule, either EOF style, any positive
   limit; the returned length is within the returned buffer (the caller's b[:n], b[n:] cannot panic) *)
Theorem C09_read_next_total : forall c b s limit, 0 < limit -> (N.of_nat limit < 2 ^ 63)%N ->
  match read_next c b s limit with RRet dst n _ _ => n <= length dst | RPanic | RFuel => False end.
Proof. exact read_next_safe. Qed.
Print Assumptions C09_read_next_total.

(* a handler looping over RecvMsg on an HTTP client stream always reaches an end that is not a panic *)
Theorem C09_http_recv_total : forall c limit valid body sch eofwd, 0 < limit -> (N.of_nat limit < 2 ^ 63)%N ->
  ended (snd (StreamHTTP.http_recv_all (Datatypes.S (length body)) (StreamHTTP.HCfg c limit true true) valid (StreamHTTP.hst0 (Src body sch eofwd)))).
Proof.
  intros c limit valid body sch eofwd Hl Hi.
  pose proof (http_recv_is_parser c limit valid (Src body sch eofwd) Hl Hi) as H.
  cbv zeta in H. cbn [rem] in H. destruct H as [_ H]. eapply end_rel_ended; eauto.
Qed.
Print Assumptions C09_http_recv_total.

(* the same on gRPC: truncated headers, length prefixes up to 2^32-1, compressed flag with or without
   a decompressor, corrupt data, any transport error at the end *)
Theorem C09_grpc_recv_total : forall limit gunzip valid body t sch eofwd,
  ended (snd (GrpcFrame.grpc_recv_all (Datatypes.S (length body)) limit gunzip valid (XSrc (Src body sch eofwd) t))).
Proof. exact grpc_recv_all_ends. Qed.
Print Assumptions C09_grpc_recv_total.

(* and on gRPC-web, binary or base64 text of any bytes *)
Theorem C09_web_recv_total : forall (text : bool) (body : bytes) sch eofwd limit gunzip valid,
  let L := fst (if text then web_text_decode body else (body, TClean)) in
  ended (snd (GrpcFrame.grpc_recv_all (Datatypes.S (length L)) limit gunzip valid (web_src text body sch eofwd))).
Proof.
  intros text body sch eofwd limit gunzip valid.
  pose proof (web_recv_refines text body sch eofwd limit gunzip valid) as H. cbv zeta in H.
  destruct (if text then web_text_decode body else (body, TClean)) as [L t]. cbn [fst].
  destruct H as [_ H]. eapply end_sim_ended; eauto.
Qed.
Print Assumptions C09_web_recv_total.

(* the size gates of every receive and send path return or refuse *)
Theorem C09_recv_gate_total : forall p c w, match Limits.recv p c w with Ok _ | Err _ => True | _ => False end.
Proof. exact recv_total. Qed.
Print Assumptions C09_recv_gate_total.
Theorem C09_send_gate_total : forall p c size, match Limits.send p c size with Ok _ | Err _ => True | _ => False end.
Proof. exact send_total. Qed.
Print Assumptions C09_send_gate_total.

(* the whole serve path with interceptors and a stats handler on or off, every scenario (protocol,
   method shape, payloads incl. 0..4 byte ones, handler script); the one Panic left in the model is
   SendMsg(nil) after an interceptor that returns (nil, nil) for a unary method -- excluded by imode_ok *)
Theorem C09_events_partial : forall sc,
  imode_ok (is_unary (s_hs sc)) (eff_mode sc) -> exists r, Events.serve false sc = Ok r.
Proof. exact EventsProofs.serve_total. Qed.
Print Assumptions C09_events_partial.

(* every request lands on exactly one of the four paths *)
Theorem C09_one_path : forall r, exists e, lands r e /\ forall e', lands r e' -> e' = e.
Proof.
  intros r. exists (dispatch r). split; [apply lands_dispatch|]. intros e' H. symmetry. now apply dispatch_lands.
Qed.
Print Assumptions C09_one_path.

Theorem C09_dispatch_exact : forall r e, dispatch r = e <-> lands r e.
Proof. exact dispatch_lands. Qed.
Print Assumptions C09_dispatch_exact.

(* whatever gRPC-web / gRPC refuse before a handler runs is refused with 400, 404, 415 or 500 *)
Theorem C09_refusals : forall c r s, serve_pre c r = Refuse s -> In s [400; 404; 415; 500]%N.
Proof. exact serve_pre_refusals. Qed.
Print Assumptions C09_refusals.

(* a handler runs on a gRPC stream only for a request that passed every check *)
Theorem C09_reach : forall c r w, serve_pre c r = ReachGrpc w ->
  q_method r = post /\ q_known r = true /\
  (q_encoding r = [] \/ memb (q_encoding r) (compressor_keys c) = true) /\
  (q_timeout r = [] \/ exists ns, decode_timeout (q_timeout r) = Some ns) /\
  (w = true <-> dispatch r = EWeb).
Proof. exact serve_pre_reach. Qed.
Print Assumptions C09_reach.

(* composition: for every request and every published trie the entry point answers with an HTTP
   status, or hands a checked request to a gRPC handler, or routes -- and routing is benign *)
Theorem C09_serve_entry_total : forall isLetter isNumber resolves (body_ok resp_ok : Lexer.str -> list Lexer.str -> bool) okconv c r L root verb p,
  TrieProofs.Inv isLetter isNumber resolves L root ->
  match serve_pre c r with
  | Refuse s => status_ok s = true
  | ReachGrpc _ => q_known r = true
  | Transcode ws => MatchProofs.benign (route okconv isLetter isNumber root (if ws then ws_verb else verb) p)
  end.
Proof. exact serve_entry_total. Qed.
Print Assumptions C09_serve_entry_total.

Definition b (l : list N) : bytes := l.
Definition ct_web_text_body := grpc_web_text ++ b [43; 98; 111; 100; 121]%N.          (* "application/grpc-web-text+body" *)
Definition ct_grpc_body := grpc_base ++ b [43; 98; 111; 100; 121]%N.                   (* "application/grpc+body" *)
Definition rq ct major := Serve.mkReq major post ct [] [] [] true.
Example entry_instances :
  (* the internal "body" codec is not a gRPC codec (the fix of this property): 415 on every gRPC flavour *)
  serve_pre default_cfg (rq ct_grpc_body 2) = Refuse 415 /\
  serve_pre default_cfg (rq ct_web_text_body 1) = Refuse 415 /\
  (* gRPC over HTTP/1 is not gRPC: it is transcoded (and then routed by path) *)
  serve_pre default_cfg (rq grpc_base 1) = Transcode false /\
  serve_pre default_cfg (rq grpc_base 2) = ReachGrpc false /\
  serve_pre default_cfg (rq (grpc_web ++ b [43; 106; 115; 111; 110]%N) 1) = ReachGrpc true /\
  (* a malformed timeout, an unknown compressor, an unknown method *)
  serve_pre default_cfg (Serve.mkReq 2 post grpc_base [] [] (b [45; 49; 83]%N) true) = Refuse 400 /\
  serve_pre default_cfg (Serve.mkReq 2 post grpc_base [] (b [98; 114]%N) [] true) = Refuse 415 /\
  serve_pre default_cfg (Serve.mkReq 2 post grpc_base [] [] [] false) = Refuse 404 /\
  (* Upgrade: websocket on a plain request selects the WEBSOCKET verb *)
  serve_pre default_cfg (Serve.mkReq 1 (b [71; 69; 84]%N) [] [websocket] [] [] false) = Transcode true.
Proof. repeat split; reflexivity. Qed.
Example good_rule_is_ok : rule_ok good_rule.
Proof. exact good_rule_ok. Qed.
