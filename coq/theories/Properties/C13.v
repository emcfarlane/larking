(* C13 -- Concurrent requests are isolated: pooled buffers, pooled compressors never leak or
   corrupt bytes across requests.
   Model: Model/Pools.v (event scripts, the boolean checker [well_bracketed], the concurrent
   system: any number of requests, any interleaving, a Get returns any pooled or a new object).
   Gen/PoolScripts.v: the scripts of larking/*.go, regenerated from the source by harness/c13gen
   on every run of ./check C13 (one script per control-flow path of every function that obtains
   an object from bytesPool, bufPool, poolCompressor, poolDecompressor; callees inlined).
   PARTIAL: sync.Pool, the library calls on the translator's whitelist, and the translator itself
   are trusted; data-race freedom of the binary is only searched for (go test -race style stress
   in the harness), not proved. *)
From Larking Require Import Model.Pools Proofs.PoolsProofs Gen.PoolScripts.
Require Import List Arith.
Import ListNotations.

(* If every script is well-bracketed then, for every number of requests and every schedule, in
   the state reached no pooled object is referenced twice (so not by two requests), no object
   lying in a pool is still referenced, no object lies in the pools twice; and every step touched
   only an object its request held at that moment and read only bytes that this request itself
   wrote since it reset the object after its Get. *)
Theorem C13_exclusive :
  forall (scripts : rid -> script),
    (forall r, well_bracketed (scripts r) = true) ->
    forall sched st ls, run (init scripts) sched = Some (st, ls) ->
      exclusive st /\ Forall access_ok ls.
Proof. exact exclusive_all_interleavings. Qed.
Print Assumptions C13_exclusive.

(* holding is exclusive: an object one request holds is held by nobody else and is in no pool *)
Theorem C13_one_holder : forall st r r' b p,
  exclusive st -> In (r, b) (refs st) ->
  (In (r', b) (refs st) -> r = r') /\ ~ In (p, b) (pools st).
Proof.
  intros st r r' b p He Hin. split.
  - intro H. exact (exclusive_holder st r r' b He Hin H).
  - exact (exclusive_not_pooled st r p b He Hin).
Qed.
Print Assumptions C13_one_holder.

(* the scripts regenerated from /repo (Gen/PoolScripts.v): every one of them is well-bracketed (re-proved by
   vm_compute on the regenerated file on every run) *)
Theorem C13_scripts_well_bracketed : forallb well_bracketed all_scripts = true.
Proof. exact all_scripts_well_bracketed. Qed.
Print Assumptions C13_scripts_well_bracketed.

(* hence: any number of concurrent activations of larking's pool-using functions, along any of
   their paths, in any interleaving, are isolated *)
Theorem C13_larking_isolated :
  forall scripts : rid -> script, (forall r, In (scripts r) all_scripts \/ scripts r = []) ->
  forall sched st ls, run (init scripts) sched = Some (st, ls) ->
    exclusive st /\ Forall access_ok ls.
Proof. exact (exclusive_for_script_set all_scripts all_scripts_well_bracketed). Qed.
Print Assumptions C13_larking_isolated.

(* the gzip request reader after the fix: what a request observes from its reader (its own
   payload, then EOF for ever) depends on its own operations only, whatever other requests do *)
Theorem C13_gzip_reader_local : forall g g' o,
  gfind (gop_rid o) (gopen g) = gfind (gop_rid o) (gopen g') ->
  snd (gstep g o) = snd (gstep g' o) /\
  gfind (gop_rid o) (gopen (fst (gstep g o))) = gfind (gop_rid o) (gopen (fst (gstep g' o))).
Proof. exact gstep_obs_own. Qed.
Print Assumptions C13_gzip_reader_local.

Theorem C13_gzip_reader_frame : forall g o r,
  gop_rid o <> r -> gfind r (gopen (fst (gstep g o))) = gfind r (gopen g).
Proof. exact gstep_local. Qed.
Print Assumptions C13_gzip_reader_frame.

(* the shape of streamGRPC.SendMsg with compression: two pools, aliases, a conditional put *)
Definition ex_send : script :=
  [Get 0 0; Reset 0; Alias 0 1; Write 1; Get 1 2; Reset 2; Write 2; Read 1; Read 2; Write 1; Put 1 2; Read 1; Put 0 0].

Example ex_send_wb : well_bracketed ex_send = true.
Proof. vm_compute. reflexivity. Qed.

Example all_scripts_nonempty : (100 <=? length all_scripts) = true /\ existsb (fun s => 15 <=? length s) all_scripts = true.
Proof. vm_compute. split; reflexivity. Qed.

(* two requests running ex_send, the second one reusing both objects of the first: a real run *)
Definition two (s1 s2 : script) : rid -> script := fun r => match r with 0 => s1 | 1 => s2 | _ => [] end.
Definition seq (r : rid) (n : nat) (c : option bufid) : list (rid * option bufid) := repeat (r, c) n.

Example ex_two_requests_reuse :
  exists st ls, run (init (two ex_send ex_send))
      (seq 0 13 None ++ [(1, Some 0)] ++ seq 1 3 None ++ [(1, Some 1)] ++ seq 1 8 None) = Some (st, ls)
    /\ length ls = 26 /\ length (pools st) = 2 /\ refs st = [].
Proof. eexists. eexists. vm_compute. repeat split; reflexivity. Qed.

(* a script that reads its buffer after having put it back: the pre-fix gzip reader
   (Read after the Put on EOF), or a bytesPool.Put moved before the last use *)
Definition ex_use_after_put : script := [Get 0 0; Reset 0; Write 0; Put 0 0; Read 0].

Example ex_use_after_put_rejected : well_bracketed ex_use_after_put = false.
Proof. vm_compute. reflexivity. Qed.

(* ... and it does break isolation: request 0 puts, request 1 gets the same object and writes,
   request 0 then reads request 1's bytes from an object it no longer holds *)
Example C13_use_after_put_refuted :
  exists sched st ls,
    run (init (two ex_use_after_put [Get 0 0; Reset 0; Write 0])) sched = Some (st, ls) /\
    ~ Forall access_ok ls.
Proof.
  exists (seq 0 4 None ++ [(1, Some 0)] ++ seq 1 2 None ++ [(0, None)]).
  eexists. eexists. split; [vm_compute; reflexivity|].
  intro H. rewrite Forall_forall in H.
  refine (access_ok_b_false _ _ (H _ _)); [|right; right; right; right; right; right; right; left; reflexivity].
  vm_compute. reflexivity.
Qed.

(* a double Put (the pre-fix gzip reader read twice after EOF) hands one object to two requests *)
Example C13_double_put_refuted :
  exists sched st ls,
    run (init (fun r => match r with 0 => [Get 3 0; Reset 0; Read 0; Put 3 0; Read 0; Put 3 0]
                                   | 1 | 2 => [Get 3 0; Reset 0; Read 0] | _ => [] end)) sched = Some (st, ls) /\
    ~ exclusive st.
Proof.
  exists (seq 0 6 None ++ [(1, Some 0); (2, Some 0)]).
  eexists. eexists. split; [vm_compute; reflexivity|].
  apply exclusive_b_false. vm_compute. reflexivity.
Qed.

(* retaining a pooled buffer (a reference kept in a struct field, HttpBody data not copied) is
   rejected; retaining the private copy is accepted *)
Example ex_retain : well_bracketed [Get 0 0; Reset 0; Write 0; Retain 0; Put 0 0] = false /\
                    well_bracketed [Get 0 0; Reset 0; Write 0; CopyOut 0 1; Retain 1; Put 0 0] = true /\
                    well_bracketed [Get 1 0; Write 0; Read 0; Put 1 0] = false.   (* no Reset after Get *)
Proof. vm_compute. repeat split; reflexivity. Qed.

(* the gzip reader model: three requests, reads after EOF, in an arbitrary order *)
Example ex_gzip_model :
  grun g_init [GOpen 0; GReadAll 0; GReadMore 0; GOpen 1; GOpen 2; GReadMore 0; GReadAll 2; GReadAll 1; GReadMore 1]
  = [GNone; GOwn; GEof; GNone; GNone; GEof; GOwn; GOwn; GEof].
Proof. vm_compute. reflexivity. Qed.

(* The handler-return barrier of a stream (Model/Barrier.v).
   Every stream operation registers with a sync.WaitGroup and the serving function waits for the operations in flight
   before it returns; a goroutine the handler left behind (the proxy's pump) may call a stream method while the
   serving function is returning. An Add at counter zero concurrent with Wait is a misuse of the WaitGroup -- a data
   race on the serving path (found by the race stress in the pinned code, repaired: findings, C13). *)
From Larking Require Import Model.Barrier Proofs.BarrierProofs Gen.BarrierSkeleton.

(* under the guarded discipline (an operation registers under the mutex and is refused once closed; the serving function
   sets closed under the mutex before it waits) no schedule of operations, closes and waits misuses the WaitGroup *)
Theorem C13_barrier_never_misused : forall es,
  closes_before_wait false es = true -> misuse (brun true es) = false.
Proof. intros es H. unfold brun. eapply brun_inv; [|exact H]. repeat split; intro; discriminate. Qed.
Print Assumptions C13_barrier_never_misused.

(* the source follows that discipline at every Add and every Wait of every WaitGroup-owning type
   (Gen/BarrierSkeleton.v is regenerated from larking/*.go on every run) *)
Theorem C13_barrier_source_is_guarded : forallb btype_ok barrier_types = true.
Proof. exact barrier_types_ok. Qed.
Print Assumptions C13_barrier_source_is_guarded.

(* the pinned discipline (Add at once, Wait at once) is misused on a three-event schedule: the handler has returned,
   the serving function waits, the pump enters its next RecvMsg *)
Theorem C13_pinned_barrier_refuted : exists es,
  closes_before_wait false es = true /\ misuse (brun false es) = true.
Proof. exists [EvClose; EvWaitBegin; EvEnter]. split; reflexivity. Qed.
Print Assumptions C13_pinned_barrier_refuted.
