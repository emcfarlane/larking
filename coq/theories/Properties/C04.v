(* C04 -- Unary response fidelity and truthful response headers.
   Model: Model/Negotiate.v (larking/negotiate.go in full), Model/Response.v (NewMux offers,
   getCodec, SendMsg, writeMsg, writeAll, the Accept / Accept-Encoding part of serveHTTP, encError).
   Reading: Spec/AcceptSpec.v. Strings are byte lists; q-values exact rationals. Messages,
   marshalling and compression are parameters: every theorem below quantifies over them and
   assumes only that unmarshal inverts marshal and decompress inverts compress. *)
From Coq Require Import QArith.
From Larking Require Import Base.GoSem Model.Negotiate Model.Response Spec.AcceptSpec Spec.ResponseSpec
  Proofs.NegotiateProofs Proofs.ResponseProofs.
Local Close Scope Q_scope.
Local Open Scope nat_scope.

(* junk never panics and always terminates: for every list of header values parseAccept returns
   a list of ranges (the model writes every Go slice expression with its bounds check and runs
   the loop on fuel |value|+1), and every q it returns is non-negative *)
Theorem parse_accept_total : forall values : list bytes,
  no_crash (parse_accept values) /\ exists specs, parse_accept values = Ok specs /\ nonneg specs.
Proof. exact parse_accept_total_hdr. Qed.
Print Assumptions parse_accept_total.

(* for every Accept header, every offer list and every default: if some offer is admitted by the
   parsed header (a range with q > 0 matching it exactly, as type/* or as */* ) the result is an
   admitted offer, otherwise it is the default *)
Theorem C04_negotiation_admitted : forall (accept : list bytes) (offers : list bytes) (def : bytes),
  exists specs, parse_accept accept = Ok specs /\
    let r := negotiate_content_type specs offers def in
    ((exists o, In o offers /\ admits specs o) -> In r offers /\ admits specs r) /\
    (~ (exists o, In o offers /\ admits specs o) -> r = def).
Proof.
  intros accept offers def. destruct (parse_accept_ok accept) as [specs [H Hn]].
  exists specs. split; [exact H|]. exact (negotiate_admitted specs offers def Hn).
Qed.
Print Assumptions C04_negotiation_admitted.

(* the order the code implements: ranges are compared by q, then by specificity (exact before
   type/* before */* ); the result is admitted by a range that no range admitting any offer beats *)
Theorem C04_negotiation_best : forall (accept : list bytes) (offers : list bytes) (def : bytes),
  exists specs, parse_accept accept = Ok specs /\
    ((exists o, In o offers /\ admits specs o) ->
     exists sp, In sp specs /\ admits_by sp (negotiate_content_type specs offers def) /\
       forall o sp', In o offers -> In sp' specs -> admits_by sp' o ->
         ~ ((sq sp < sq sp')%Q \/ ((sq sp' == sq sp)%Q /\ wild (sval sp') < wild (sval sp)))).
Proof.
  intros accept offers def. destruct (parse_accept_ok accept) as [specs [H Hn]].
  exists specs. split; [exact H|]. intros Hex. exact (negotiate_best specs offers def Hn Hex).
Qed.
Print Assumptions C04_negotiation_best.

(* ... and ties go to the pair visited first (offers in list order, ranges in header order):
   every admitting pair before the chosen one is strictly worse, none after it is better. Together
   with the two theorems above this determines the result uniquely. *)
Theorem C04_negotiation_first : forall (accept : list bytes) (offers : list bytes) (def : bytes),
  exists specs, parse_accept accept = Ok specs /\
    ((exists o, In o offers /\ admits specs o) ->
     exists P1 P2 sp, pairs specs offers = P1 ++ (negotiate_content_type specs offers def, sp) :: P2 /\
       admits_by sp (negotiate_content_type specs offers def) /\
       (forall o' sp', In (o', sp') P1 -> admits_by sp' o' -> better sp sp') /\
       (forall o' sp', In (o', sp') P2 -> admits_by sp' o' -> ~ better sp' sp)).
Proof.
  intros accept offers def. destruct (parse_accept_ok accept) as [specs [H Hn]].
  exists specs. split; [exact H|]. intros Hex. exact (negotiate_first specs offers def Hn Hex).
Qed.
Print Assumptions C04_negotiation_first.

(* the decision procedure the harness runs on the implementation's choices is the reading *)
Theorem C04_choice_ok_decides : forall specs offers def r,
  choice_ok specs offers def r = true <->
  ((exists o, In o offers /\ admits specs o) /\ In r offers /\ admits specs r /\ best_choice specs offers r) \/
  (~ (exists o, In o offers /\ admits specs o) /\ r = def).
Proof. exact choice_ok_iff. Qed.
Print Assumptions C04_choice_ok_decides.

(* Accept-Encoding: the chosen encoding is an offer, "identity" or "" *)
Theorem C04_encoding_choice : forall specs offers,
  let r := negotiate_encoding specs offers in r = [] \/ r = identity \/ In r offers.
Proof. exact negotiate_encoding_in. Qed.
Print Assumptions C04_encoding_choice.

(* a 200 response carries: Content-Type = what SendMsg chose, bytes that, after undoing the
   encoding named by Content-Encoding (if any; it names a registered compressor), are exactly the
   bytes SendMsg produced -- Content-Encoding is truthful *)
Theorem C04_encoding_truthful :
  forall (msg field : Type) (get_msg : field -> msg -> option msg)
    (full_name body_ct body_data : msg -> bytes) (marshal : codec -> msg -> outcome bytes)
    (marshal_status : codec -> N -> outcome bytes) (compress decompress : bytes -> bytes -> bytes),
  (forall e b : bytes, decompress e (compress e b) = b) ->
  forall (cfg : config) (reqct : option bytes) (accept accept_enc : list bytes)
    (has_body : bool) (reqcur : msg) (path : list field) (reply : msg) (r : response),
  serve_unary msg field get_msg full_name body_ct body_data marshal marshal_status compress cfg reqct
    accept accept_enc has_body reqcur path reply = Ok r ->
  r_status r = 200%N ->
  exists (aspecs : list spec) (s : sent),
    parse_accept accept = Ok aspecs /\ nonneg aspecs /\
    send_msg msg field get_msg full_name body_ct body_data marshal cfg path
      (negotiate_content_type aspecs (content_type_offers cfg) (request_content_type reqct)) reply = Ok s /\
    r_ct r = Some (s_ct s) /\
    decode_wire decompress (r_ce r) (r_wire r) = s_body s /\
    (r_ce r = None \/ (exists e : bytes, r_ce r = Some e /\ memb e (compressors cfg) = true)).
Proof. exact serve_200_body. Qed.
Print Assumptions C04_encoding_truthful.

(* google.api.HttpBody replies (also when selected by response_body): raw data bytes under their
   own content type, whatever Accept says *)
Theorem C04_httpbody_passthrough :
  forall (msg field : Type) (get_msg : field -> msg -> option msg)
    (full_name body_ct body_data : msg -> bytes) (marshal : codec -> msg -> outcome bytes)
    (marshal_status : codec -> N -> outcome bytes) (compress decompress : bytes -> bytes -> bytes),
  (forall e b : bytes, decompress e (compress e b) = b) ->
  forall (cfg : config) (reqct : option bytes) (accept accept_enc : list bytes)
    (has_body : bool) (reqcur : msg) (path : list field) (reply : msg) (r : response) (cur : msg),
  serve_unary msg field get_msg full_name body_ct body_data marshal marshal_status compress cfg reqct
    accept accept_enc has_body reqcur path reply = Ok r ->
  r_status r = 200%N ->
  select msg field get_msg path reply = Some cur ->
  full_name cur = http_body_name ->
  r_ct r = Some (body_ct cur) /\ decode_wire decompress (r_ce r) (r_wire r) = body_data cur.
Proof. exact httpbody_passthrough. Qed.
Print Assumptions C04_httpbody_passthrough.

(* every other reply: the Content-Type is the negotiated type, a codec is registered under it,
   and unmarshalling the (decoded) body with that codec gives exactly the field selected by
   response_body (the whole reply when the path is empty) *)
Theorem C04_body_decodes :
  forall (msg field : Type) (get_msg : field -> msg -> option msg)
    (full_name body_ct body_data : msg -> bytes) (marshal : codec -> msg -> outcome bytes)
    (marshal_status : codec -> N -> outcome bytes) (compress : bytes -> bytes -> bytes)
    (unmarshal : codec -> bytes -> option msg) (decompress : bytes -> bytes -> bytes),
  (forall (c : codec) (m : msg) (b : bytes), marshal c m = Ok b -> unmarshal c b = Some m) ->
  (forall e b : bytes, decompress e (compress e b) = b) ->
  forall (cfg : config) (reqct : option bytes) (accept accept_enc : list bytes)
    (has_body : bool) (reqcur : msg) (path : list field) (reply : msg) (r : response) (cur : msg),
  serve_unary msg field get_msg full_name body_ct body_data marshal marshal_status compress cfg reqct
    accept accept_enc has_body reqcur path reply = Ok r ->
  r_status r = 200%N ->
  select msg field get_msg path reply = Some cur ->
  full_name cur <> http_body_name ->
  lookup (full_name cur) (codecs cfg) = None ->       (* no codec registered under the message's own name *)
  exists (aspecs : list spec) (t : bytes) (c : codec),
    parse_accept accept = Ok aspecs /\
    t = negotiate_content_type aspecs (content_type_offers cfg) (request_content_type reqct) /\
    r_ct r = Some t /\ lookup t (codecs cfg) = Some c /\
    unmarshal c (decode_wire decompress (r_ce r) (r_wire r)) = Some cur.
Proof. exact body_decodes. Qed.
Print Assumptions C04_body_decodes.

(* the Go walk of the response_body path is the selection (and panics exactly when a field of the
   path is not a singular message field, which addRule refuses (T4r as repaired)) *)
Theorem C04_response_body_selected :
  forall (msg field : Type) (get_msg : field -> msg -> option msg) (path : list field) (m cur : msg),
  walk msg field get_msg path m = Ok cur <-> select msg field get_msg path m = Some cur.
Proof. exact walk_select. Qed.
Print Assumptions C04_response_body_selected.

Theorem C04_response_body_rule : forall kinds,
  resp_path_ok kinds = true <-> kinds <> [] /\ Forall (fun k => k = KMessage) kinds.
Proof. exact resp_path_ok_iff. Qed.
Print Assumptions C04_response_body_rule.

(* the send limit: what is sent with status 200 is never longer than max_send ... *)
Theorem C04_send_limit :
  forall (msg field : Type) (get_msg : field -> msg -> option msg)
    (full_name body_ct body_data : msg -> bytes) (marshal : codec -> msg -> outcome bytes)
    (marshal_status : codec -> N -> outcome bytes) (compress decompress : bytes -> bytes -> bytes),
  (forall e b : bytes, decompress e (compress e b) = b) ->
  forall (cfg : config) (reqct : option bytes) (accept accept_enc : list bytes)
    (has_body : bool) (reqcur : msg) (path : list field) (reply : msg) (r : response),
  serve_unary msg field get_msg full_name body_ct body_data marshal marshal_status compress cfg reqct
    accept accept_enc has_body reqcur path reply = Ok r ->
  r_status r = 200%N ->
  (N.of_nat (length (decode_wire decompress (r_ce r) (r_wire r))) <= max_send cfg)%N.
Proof. exact sent_within_limit. Qed.
Print Assumptions C04_send_limit.

(* ... the refusal is exact (SendMsg fails iff the bytes exceed the limit) ... *)
Theorem C04_send_limit_exact :
  forall (msg field : Type) (get_msg : field -> msg -> option msg)
    (full_name body_ct body_data : msg -> bytes) (marshal : codec -> msg -> outcome bytes)
    (cfg : config) (path : list field) (accept : bytes) (reply cur : msg) (c : codec) (b ct : bytes),
  select msg field get_msg path reply = Some cur ->
  get_codec msg full_name cfg accept cur = Ok c ->
  payload msg full_name body_ct body_data marshal c accept cur = Ok (b, ct) ->
  send_msg msg field get_msg full_name body_ct body_data marshal cfg path accept reply =
  (if (max_send cfg <? N.of_nat (length b))%N then Err ETooLarge else Ok {| s_ct := ct; s_body := b |}).
Proof. exact send_msg_limit. Qed.
Print Assumptions C04_send_limit_exact.

(* ... and a refused reply is answered with status 500 and an error code, never with a 200 *)
Theorem C04_send_limit_refused :
  forall (msg field : Type) (get_msg : field -> msg -> option msg)
    (full_name body_ct body_data : msg -> bytes) (marshal : codec -> msg -> outcome bytes)
    (marshal_status : codec -> N -> outcome bytes) (compress : bytes -> bytes -> bytes)
    (cfg : config) (reqct : option bytes) (accept accept_enc : list bytes)
    (has_body : bool) (reqcur : msg) (path : list field) (reply : msg) (r : response)
    (aspecs : list spec) (cur : msg) (c : codec) (b ct : bytes),
  serve_unary msg field get_msg full_name body_ct body_data marshal marshal_status compress cfg reqct
    accept accept_enc has_body reqcur path reply = Ok r ->
  parse_accept accept = Ok aspecs ->
  let acc := negotiate_content_type aspecs (content_type_offers cfg) (request_content_type reqct) in
  select msg field get_msg path reply = Some cur ->
  get_codec msg full_name cfg acc cur = Ok c ->
  payload msg full_name body_ct body_data marshal c acc cur = Ok (b, ct) ->
  (max_send cfg < N.of_nat (length b))%N -> r_status r = 500%N /\ r_code r <> 0%N.
Proof. exact over_limit_refused. Qed.
Print Assumptions C04_send_limit_refused.

(* T5 repaired: when the internal HttpBody codec is registered under its message name only and
   the other codecs do not panic, no Accept / Accept-Encoding / Content-Type makes the unary
   response path panic (nor the error path: encError always finds a codec) *)
Theorem C04_no_internal_codec :
  forall (msg field : Type) (get_msg : field -> msg -> option msg)
    (full_name body_ct body_data : msg -> bytes) (marshal : codec -> msg -> outcome bytes)
    (marshal_status : codec -> N -> outcome bytes) (compress : bytes -> bytes -> bytes)
    (cfg : config) (reqct : option bytes) (accept accept_enc : list bytes)
    (has_body : bool) (reqcur : msg) (path : list field) (reply cur : msg),
  sane msg marshal marshal_status cfg ->
  select msg field get_msg path reply = Some cur ->
  no_crash (serve_unary msg field get_msg full_name body_ct body_data marshal marshal_status compress cfg reqct
              accept accept_enc has_body reqcur path reply).
Proof. exact serve_unary_no_crash. Qed.
Print Assumptions C04_no_internal_codec.

(* NOTED, not a violation: NewMux builds the encoding offers from the codec keys, so with the
   default configuration no Accept-Encoding whatsoever selects a compressor; responses are never
   compressed and C04_encoding_truthful holds for the poor reason that Content-Encoding is never
   sent on a reply *)
Theorem C04_compression_unreachable : forall especs : list spec,
  memb (negotiate_encoding especs (encoding_type_offers default_config)) (compressors default_config) = false.
Proof. exact default_never_compresses. Qed.
Print Assumptions C04_compression_unreachable.

Definition ex_offers := content_type_offers default_config.
Example default_offers : ex_offers = [json_type; octet_type; protobuf_type].
Proof. vm_compute. reflexivity. Qed.

(* "text/*;q=0.5, application/protobuf;q=0.5": nothing offered matches text/*, protobuf is chosen *)
Definition ex_accept1 := str_of [116;101;120;116;47;42;59;113;61;48;46;53;44;32;97;112;112;108;105;99;97;116;105;111;110;47;112;114;111;116;111;98;117;102;59;113;61;48;46;53].
Example negotiate1 : negotiate_ct_header [ex_accept1] ex_offers json_type = Ok protobuf_type.
Proof. vm_compute. reflexivity. Qed.

(* "application/json; charset=utf-8": a parameter other than q discards the range (and the rest
   of that header line): nothing is admitted, the default is returned *)
Definition ex_accept2 := str_of [97;112;112;108;105;99;97;116;105;111;110;47;106;115;111;110;59;32;99;104;97;114;115;101;116;61;117;116;102;45;56].
Example negotiate2 : parse_accept [ex_accept2] = Ok [] /\
  negotiate_ct_header [ex_accept2] ex_offers (str_of [116;101;120;116;47;112;108;97;105;110]) = Ok (str_of [116;101;120;116;47;112;108;97;105;110]).
Proof. vm_compute. split; reflexivity. Qed.

(* junk: " , ;q=abc" followed by bytes >= 0x80 *)
Example parse_junk : parse_accept [str_of [32;44;32;59;113;61;97;98;99;195;191]; []; ex_accept1] =
  Ok [mkspec (str_of [116;101;120;116;47;42]) (5 # 10); mkspec protobuf_type (5 # 10)].
Proof. vm_compute. reflexivity. Qed.

(* T7 (judgement, evaluated separately): "application/json;q=0, */*". The reading of C04 says
   json is admitted (by the */* range) and the code returns it; under the stricter RFC 7231 reading the most
   specific range matching json has q=0 and json would be excluded. *)
Definition ex_accept_t7 := str_of [97;112;112;108;105;99;97;116;105;111;110;47;106;115;111;110;59;113;61;48;44;32;42;47;42].
Example t7_strict_reading_differs : exists specs,
  parse_accept [ex_accept_t7] = Ok specs /\
  negotiate_content_type specs ex_offers protobuf_type = json_type /\
  admitsb specs json_type = true /\ most_specific_q0 specs json_type = true /\
  most_specific_q0 specs octet_type = false.
Proof. eexists. split; [vm_compute; reflexivity|]. vm_compute. repeat split; reflexivity. Qed.

(* the code's order is by range, not by offer: "application/json;q=0.1, */*;q=0.9" yields json
   (first offer matched by the best range) where RFC 7231 would give json the weight 0.1 *)
Definition ex_accept_rfc := str_of [97;112;112;108;105;99;97;116;105;111;110;47;106;115;111;110;59;113;61;48;46;49;44;32;42;47;42;59;113;61;48;46;57].
Example order_is_by_range : negotiate_ct_header [ex_accept_rfc] ex_offers protobuf_type = Ok json_type.
Proof. vm_compute. reflexivity. Qed.

(* a concrete instance of the parameters: a message is a byte list, "marshal" prefixes a codec
   tag, "compress" prefixes 0; messages starting with 255 are HttpBody values *)
Definition ex_tag (c : codec) : N := match c with CJSON => 1 | CProto => 2 | CBody => 3 | CUser n => (4 + n)%N end.
Definition ex_marshal (c : codec) (m : bytes) : outcome bytes :=
  match c with CBody => Panic PExplicit | _ => Ok (ex_tag c :: m) end.
Definition ex_unmarshal (c : codec) (b : bytes) : option bytes :=
  match b with t :: m => if (t =? ex_tag c)%N then Some m else None | [] => None end.
Definition ex_status (c : codec) (n : N) : outcome bytes := ex_marshal c [n].
Definition ex_compress (e b : bytes) : bytes := 0%N :: b.
Definition ex_decompress (e b : bytes) : bytes := tl b.
Definition ex_name (m : bytes) : bytes := match m with 255%N :: _ => http_body_name | _ => str_of [120] end.
Definition ex_get (fd : nat) (m : bytes) : option bytes := match fd with O => Some (tl m) | _ => None end.
Definition ex_serve := serve_unary bytes nat ex_get ex_name (fun _ => str_of [105;109;97;103;101;47;112;110;103]) (fun m => tl m)
  ex_marshal ex_status ex_compress.

Example ex_inverse : (forall c m b, ex_marshal c m = Ok b -> ex_unmarshal c b = Some m) /\
                     (forall e b, ex_decompress e (ex_compress e b) = b).
Proof.
  split; [|reflexivity]. intros c m b H. destruct c; cbn in H; try discriminate; inversion H; subst; cbn;
    rewrite ?N.eqb_refl; reflexivity.
Qed.
Example ex_sane : sane bytes ex_marshal ex_status default_config.
Proof.
  repeat split.
  - intros k H. unfold default_config, default_codecs in H. cbn [codecs lookup] in H.
    destruct (bytes_eqb json_type k); [discriminate|].
    destruct (bytes_eqb protobuf_type k); [discriminate|].
    destruct (bytes_eqb octet_type k); [discriminate|].
    destruct (bytes_eqb http_body_name k) eqn:E; [|discriminate].
    apply bytes_eqb_eq in E. auto.
  - eexists. reflexivity.
  - intros c m Hc. destruct c; cbn; auto.
  - intros c n Hc. destruct c; cbn; auto.
Qed.
(* a protobuf reply of the field selected by a one-step response_body, 200, no Content-Encoding *)
Example ex_reply : ex_serve default_config None [protobuf_type] [str_of [103;122;105;112]] false [] [O] [9;7;8]%N =
  Ok (mkresp 200 (Some protobuf_type) None [2;7;8]%N 0).
Proof. vm_compute. reflexivity. Qed.
(* an HttpBody reply passes through under its own type although Accept asks for JSON *)
Example ex_httpbody : ex_serve default_config None [json_type] [] false [] [] [255;1;2]%N =
  Ok (mkresp 200 (Some (str_of [105;109;97;103;101;47;112;110;103])) None [1;2]%N 0).
Proof. vm_compute. reflexivity. Qed.
(* over the limit: 500 with code 2, nothing of the reply on the wire *)
Example ex_limit : ex_serve (mkconfig default_codecs [gzip_name] 3) None [] [] false [] [] [5;6;7]%N =
  Ok (mkresp 500 (Some json_type) None [1;2]%N 2).
Proof. vm_compute. reflexivity. Qed.
(* unknown request content type and no Accept: no codec, 500 with code 13 *)
Example ex_nocodec : ex_serve default_config (Some (str_of [116;101;120;116;47;112;108;97;105;110])) [] [] false [] [] [5]%N =
  Ok (mkresp 500 (Some json_type) (Some identity) [1;13]%N 13).
Proof. vm_compute. reflexivity. Qed.
(* Accept: google.api.HttpBody is not an offer (T5 as repaired): the default (JSON) is used *)
Example ex_t5 : ex_serve default_config None [http_body_name] [] false [] [] [5]%N =
  Ok (mkresp 200 (Some json_type) None [1;5]%N 0).
Proof. vm_compute. reflexivity. Qed.
(* a configuration in which a compressor IS reachable (its key is also a codec key): the header
   is set and the wire bytes are the compressed ones *)
Example ex_compressed :
  ex_serve (mkconfig default_codecs [json_type] 100) None [] [str_of [42]] false [] [] [5]%N =
  Ok (mkresp 200 (Some json_type) (Some json_type) [0;1;5]%N 0).
Proof. vm_compute. reflexivity. Qed.
