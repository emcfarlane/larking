(* C02 -- Routing completeness, literal-over-wildcard precedence, order independence.
   Same model and specification as C01. Domain of completeness, as the property states it: the
   path is lexed (documented path characters, at most 64 tokens), every capture converts
   (okconv constantly true: e.g. string fields), and the covering is the specification's MatchEdges
   (so "**" ends the template: the lexer enforces it, Properties/C16).
   Order independence: if a list of pairwise distinct bindings is accepted in one registration order
   it is accepted in every order (C02_acceptance_order_independent), and two orders route every request
   identically (C02_order_independent) -- through an exact characterisation of a built trie's content
   by the list of registered bindings. *)
From Larking Require Import Base.GoSem Model.Lexer Model.Trie Model.Match Spec.Grammar Spec.Route
  Spec.Template
  Proofs.LexerProofs Proofs.MatchProofs Proofs.TrieProofs Proofs.RoutingProofs Proofs.OrderProofs Proofs.AcceptProofs
  Proofs.TemplateInstProofs Proofs.LeastProofs.
From Coq Require Import Permutation.
Local Open Scope N_scope.

(* completeness: a registered binding whose verb covers the request and whose template covers the
   path is served -- never 404/405 *)
Theorem C02_complete :
  forall isLetter isNumber resolves okconv, Sane isLetter isNumber -> (forall fp t, okconv fp t = true) ->
  forall L root verb p mid b es vfs toks caps,
  Inv isLetter isNumber resolves L root -> In (mid, b) L -> covers_verb (b_verb b) verb ->
  compiled isLetter isNumber resolves mid b es vfs ->
  lex_path isLetter isNumber (normalise p) = Ok toks -> MatchEdges es toks caps ->
  exists r, route okconv isLetter isNumber root verb p = Ok r.
Proof. exact dispatch_complete. Qed.
Print Assumptions C02_complete.

(* completeness read at the level of text, with the property's own premises: the request path is an
   instance (Spec/Template.v: pieces between "/" made of the documented path characters, lined up with
   the template's segments) of a registered binding's template, it is within larking's limit of 64
   path tokens, and captures convert -- then the request is served *)
Theorem C02_complete_text :
  forall isLetter isNumber resolves okconv, Sane isLetter isNumber -> (forall fp t, okconv fp t = true) ->
  forall L root verb p mid b es vfs t cs,
  Inv isLetter isNumber resolves L root -> In (mid, b) L -> covers_verb (b_verb b) verb ->
  compiled isLetter isNumber resolves mid b es vfs ->
  parse_tmpl isLetter isNumber (b_tmpl b) = Some t ->
  inst isLetter isNumber true t p = Some cs ->
  (path_tokens (normalise p) <= 64)%nat ->
  exists r, route okconv isLetter isNumber root verb p = Ok r.
Proof. exact oracle_match_is_served_bounded. Qed.
Print Assumptions C02_complete_text.

(* ... and by a method that owns a rule covering the request (C01 applied to the answer) *)
Theorem C02_complete_to_owner :
  forall isLetter isNumber resolves okconv, Sane isLetter isNumber -> (forall fp t, okconv fp t = true) ->
  forall L root verb p mid b es vfs toks caps,
  Inv isLetter isNumber resolves L root -> In (mid, b) L -> covers_verb (b_verb b) verb ->
  compiled isLetter isNumber resolves mid b es vfs ->
  lex_path isLetter isNumber (normalise p) = Ok toks -> MatchEdges es toks caps ->
  exists m caps' mid' b' es',
    route okconv isLetter isNumber root verb p = Ok (m, caps') /\
    In (mid', b') L /\ m_id m = mid' /\ covers_verb (b_verb b') verb /\
    compiled isLetter isNumber resolves mid' b' es' (m_vars m) /\ MatchEdges es' toks caps'.
Proof.
  intros isLetter isNumber resolves okconv sane conv L root verb p mid b es vfs toks caps HI Hin Hcov Hc El HM.
  destruct (dispatch_complete isLetter isNumber resolves okconv sane conv L root verb p mid b es vfs toks caps HI Hin Hcov Hc El HM) as [[m caps'] Hr].
  destruct (dispatch_sound isLetter isNumber resolves okconv sane L root verb p m caps' HI Hr) as (mid' & b' & es' & toks' & A & B & C & D & E & F & G).
  rewrite El in F. inversion F; subst toks'. exists m, caps', mid', b', es'. auto 10.
Qed.
Print Assumptions C02_complete_to_owner.

(* literal over wildcard: where a literal edge spells the next separator and text and the rest of the
   path is served below it, that is the answer -- whatever variables the node also has *)
Theorem C02_literal_over_wildcard : forall okconv fuel verb nd t0 t1 rest nxt r,
  assoc (tval t0 ++ tval t1) (n_segs nd) = Some nxt ->
  search okconv fuel verb nxt rest = Ok r ->
  search okconv (S fuel) verb nd (t0 :: t1 :: rest) = Ok r.
Proof. exact search_literal_first. Qed.
Print Assumptions C02_literal_over_wildcard.

(* the variables of a node are tried in an order that does not depend on the order of insertion:
   sorted by the text of their pattern (and there is one per pattern text) *)
Theorem C02_variables_sorted : forall isLetter isNumber resolves L root es nd,
  Inv isLetter isNumber resolves L root -> Reach root es nd -> names_sorted (n_vars nd).
Proof.
  intros isLetter isNumber resolves L root es nd HI HR.
  destruct (Reach_walk (PatG isLetter isNumber) _ _ _ HR 0%nat (inv_wf _ _ _ _ _ HI)) as (_ & W & _).
  inversion W; subst. assumption.
Qed.
Print Assumptions C02_variables_sorted.

(* the search is total on every trie registration can build: never a panic, never out of fuel *)
Theorem C02_route_total : forall isLetter isNumber resolves okconv L root verb p,
  Inv isLetter isNumber resolves L root -> MatchProofs.benign (route okconv isLetter isNumber root verb p).
Proof. intros isLetter isNumber resolves okconv L root verb p HI. eapply route_total; eauto. Qed.
Print Assumptions C02_route_total.

(* order independence: register the same bindings (no two different ones at the same node under the
   same verb) in two orders; if both orders are accepted, every request -- any verb, any path -- gets
   the same answer: same binding, same captures, or the same refusal *)
Theorem C02_order_independent :
  forall isLetter isNumber resolves body_ok resp_ok okconv, Sane isLetter isNumber ->
  forall l1 l2 r1 r2,
  Permutation l1 l2 -> Distinct isLetter isNumber resolves l1 ->
  build_from isLetter isNumber resolves body_ok resp_ok empty_node l1 = Ok r1 ->
  build_from isLetter isNumber resolves body_ok resp_ok empty_node l2 = Ok r2 ->
  forall verb p, route okconv isLetter isNumber r1 verb p = route okconv isLetter isNumber r2 verb p.
Proof. intros isLetter isNumber resolves body_ok resp_ok okconv. exact (order_independent isLetter isNumber resolves body_ok resp_ok okconv). Qed.
Print Assumptions C02_order_independent.

(* ... and whether a rule set is accepted does not depend on the order either: conflicts are detected
   symmetrically (every accepted binding met no other method's binding under an overlapping verb, in
   whichever order they came), the other causes of refusal concern one binding alone *)
Theorem C02_acceptance_order_independent :
  forall isLetter isNumber resolves body_ok resp_ok l1 l2 r1,
  Permutation l1 l2 -> NoDup l1 -> Distinct isLetter isNumber resolves l1 ->
  build_from isLetter isNumber resolves body_ok resp_ok empty_node l1 = Ok r1 ->
  exists r2, build_from isLetter isNumber resolves body_ok resp_ok empty_node l2 = Ok r2.
Proof. exact accept_perm. Qed.
Print Assumptions C02_acceptance_order_independent.

(* the content of a built trie is exactly the registered bindings: which nodes exist, and what is
   stored at each, is a function of the set of bindings, not of their order *)
Theorem C02_content_exact : forall isLetter isNumber resolves body_ok resp_ok l r, Distinct isLetter isNumber resolves (rev l ++ []) ->
  build_from isLetter isNumber resolves body_ok resp_ok empty_node l = Ok r ->
  InvX isLetter isNumber resolves (rev l ++ []) r.
Proof.
  intros isLetter isNumber resolves body_ok resp_ok l r HD HB.
  exact (build_InvX isLetter isNumber resolves body_ok resp_ok l [] empty_node r (InvX_empty isLetter isNumber resolves) HD HB).
Qed.
Print Assumptions C02_content_exact.

(* precedence in full: the router is CHARACTERISED. Among the candidates of a request -- (edge path, node, captures,
   binding) with the path leading to the node, covering the request's tokens with those captures, and the node offering
   a binding to the verb -- the answer is the one at the LEAST edge path in the lexicographic order in which a literal
   edge precedes every variable edge and variable edges are ordered by the text of their pattern; when there is no
   candidate the answer is an error. The premise is the property's own: every candidate's captures convert. *)
Theorem C02_least_edge_path :
  forall isLetter isNumber resolves okconv L root verb p,
  Inv isLetter isNumber resolves L root ->
  (forall toks, lex_path isLetter isNumber (normalise p) = Ok toks -> ConvAll okconv verb root toks) ->
  match route okconv isLetter isNumber root verb p with
  | Ok (m, ps) => exists toks es nd, lex_path isLetter isNumber (normalise p) = Ok toks /\ Least verb root toks es nd ps m
  | Err _ => forall toks es nd caps m, lex_path isLetter isNumber (normalise p) = Ok toks -> ~ Cand verb root toks es nd caps m
  | _ => False
  end.
Proof. exact route_is_least. Qed.
Print Assumptions C02_least_edge_path.

(* ... and conversely: the least candidate is what the router answers, with its captures *)
Theorem C02_least_is_served :
  forall isLetter isNumber resolves okconv L root verb p toks es nd caps m,
  Inv isLetter isNumber resolves L root -> lex_path isLetter isNumber (normalise p) = Ok toks ->
  ConvAll okconv verb root toks -> Least verb root toks es nd caps m ->
  route okconv isLetter isNumber root verb p = Ok (m, caps).
Proof. exact route_least_served. Qed.
Print Assumptions C02_least_is_served.

(* "the literal one wins", in the property's words: if some candidate spells a position literally where other
   paths (same edges before) have a variable, the answer does not go through such a variable *)
Theorem C02_literal_beats_variable :
  forall okconv fuel verb root k toks m ps pre key s1 nd1 caps1 m1,
  TrieInv root k -> SortedBelow root -> (length toks < fuel)%nat -> ConvAll okconv verb root toks ->
  search okconv fuel verb root toks = Ok (m, ps) ->
  Cand verb root toks (pre ++ ELit key :: s1) nd1 caps1 m1 ->
  exists es nd, Least verb root toks es nd ps m /\ forall p s2, es <> pre ++ EVar p :: s2.
Proof. intros *; intros _ HS _. now apply literal_beats_variable. Qed.
Print Assumptions C02_literal_beats_variable.

(* the answer is a function of the SET of candidates: two tries -- built in whatever order -- that offer the same
   candidates to a request give the same outcome, error class included (a second route to order independence) *)
Theorem C02_answer_determined_by_candidates :
  forall okconv fuel1 fuel2 verb root1 root2 k1 k2 toks,
  TrieInv root1 k1 -> SortedBelow root1 -> (length toks < fuel1)%nat -> ConvAll okconv verb root1 toks ->
  TrieInv root2 k2 -> SortedBelow root2 -> (length toks < fuel2)%nat -> ConvAll okconv verb root2 toks ->
  (forall es caps m, (exists nd, Cand verb root1 toks es nd caps m) <-> (exists nd, Cand verb root2 toks es nd caps m)) ->
  search okconv fuel1 verb root1 toks = search okconv fuel2 verb root2 toks.
Proof. exact least_is_order_independent. Qed.
Print Assumptions C02_answer_determined_by_candidates.

(* what holds WITHOUT the premise on conversions: the answer is a convertible candidate, and any candidate before it
   in the order is explained by a candidate before the answer whose captures do not convert *)
Theorem C02_least_edge_path_partial :
  forall isLetter isNumber resolves okconv L root verb p m ps,
  Inv isLetter isNumber resolves L root -> route okconv isLetter isNumber root verb p = Ok (m, ps) ->
  exists toks es nd, lex_path isLetter isNumber (normalise p) = Ok toks /\
    Cand verb root toks es nd ps m /\ conv_ok okconv m ps = true /\
    forall es' nd' caps' m', Cand verb root toks es' nd' caps' m' ->
      es = es' \/ path_lt es es' \/
      (path_lt es' es /\ exists esb ndb capsb mb,
          Cand verb root toks esb ndb capsb mb /\ conv_ok okconv mb capsb = false /\ path_lt esb es).
Proof. exact route_least_partial. Qed.
Print Assumptions C02_least_edge_path_partial.

(* ... and that the premise is needed: with rules GET /aa/{x}/cc (x converts from digits only), GET /aa/{y=**} and
   GET /{w}/{v}/cc, the request GET /aa/zz/cc is answered by /{w}/{v}/cc although /aa/{y=**} covers it, converts, and
   spells "aa" literally -- the candidate through /aa/{x}/cc does not convert, and a failed conversion below a literal
   ends the search of that literal's subtree. The property excludes such requests ("every matching rule's captures
   convertible"); the statement without the premise is refuted on the model (LeastProofs.Instances), see design/C02.md *)
Theorem C02_least_edge_path_without_premise_refuted :
  let I := Instances.rootABC in
  (exists L, Inv Instances.asciiL Instances.asciiN Instances.all_ok L I) /\
  lex_path Instances.asciiL Instances.asciiN (normalise Instances.reqx) = Ok Instances.toksx /\
  route Instances.okx Instances.asciiL Instances.asciiN I Instances.GET Instances.reqx = Ok (Instances.infoC, [[122;122]; [97;97]]) /\
  (exists nd, Cand Instances.GET I Instances.toksx Instances.pathC nd [[122;122]; [97;97]] Instances.infoC) /\
  (exists nd, Cand Instances.GET I Instances.toksx Instances.pathB nd [[122;122;47;99;99]] Instances.infoB) /\
  conv_ok Instances.okx Instances.infoB [[122;122;47;99;99]] = true /\
  path_lt Instances.pathB Instances.pathC /\
  ~ (exists es nd, Least Instances.GET I Instances.toksx es nd [[122;122]; [97;97]] Instances.infoC).
Proof. exact Instances.least_edge_path_refuted. Qed.
Print Assumptions C02_least_edge_path_without_premise_refuted.

Definition asciiL (r : N) : bool := ((65 <=? r) && (r <=? 90)) || ((97 <=? r) && (r <=? 122)).
Definition asciiN (r : N) : bool := (48 <=? r) && (r <=? 57).
Definition all_ok (_ : str) (_ : list str) := true.
Definition conv_ok (_ : list str) (_ : str) := true.
Definition sv (l : list N) : str := l.
Definition GET := sv [71;69;84].
Definition mk verb tmpl := {| h_main := {| b_verb := verb; b_tmpl := tmpl; b_body := BNone; b_resp := []; b_nested := false |}; h_adds := [] |}.
Definition mLit : str := sv [47;83;47;76].   (* "/S/L": GET /aa/b/v1 *)
Definition mVar : str := sv [47;83;47;86].   (* "/S/V": GET /aa/{s1}/v1 *)
Definition mAll : str := sv [47;83;47;65].   (* "/S/A": GET /aa/{s2=**} *)
Definition dL := {| d_id := mLit; d_config := []; d_annot := Some (mk GET (sv [47;97;97;47;98;47;118;49])) |}.
Definition dV := {| d_id := mVar; d_config := []; d_annot := Some (mk GET (sv [47;97;97;47;123;115;49;125;47;118;49])) |}.
Definition dA := {| d_id := mAll; d_config := []; d_annot := Some (mk GET (sv [47;97;97;47;123;115;50;61;42;42;125])) |}.
Definition who (ds : list mdecl) (p : str) :=
  match route conv_ok asciiL asciiN (run_services asciiL asciiN all_ok all_ok all_ok empty_node [ds]) GET p with
  | Ok (m, _) => Some (m_id m) | _ => None end.
Example precedence_in_every_order :
  let p_lit := sv [47;97;97;47;98;47;118;49] in        (* /aa/b/v1 : all three cover it, the literal wins *)
  let p_var := sv [47;97;97;47;120;47;118;49] in       (* /aa/x/v1 : {s1} and ** cover it; "*" sorts before "**" *)
  let p_all := sv [47;97;97;47;120;47;121] in          (* /aa/x/y  : only ** *)
  forall ds, In ds [[dL; dV; dA]; [dA; dV; dL]; [dV; dA; dL]; [dA; dL; dV]] ->
  who ds p_lit = Some mLit /\ who ds p_var = Some mVar /\ who ds p_all = Some mAll.
Proof. intros p_lit p_var p_all ds H. cbn in H. repeat (destruct H as [ <- | H ]; [vm_compute; auto|]). contradiction. Qed.
