(* C07 -- Path-bound fields are authoritative.
   Model: Model/Schema.v (flattened messages, protoreflect Set / Mutable / Append),
   Model/Params.v (parseParam, params.set, parseQueryParams), Model/Transcode.v (serveHTTP parameter
   order after the fix: query parameters first, path parameters last; RecvMsg: body, then params). *)
From Larking Require Import Base.GoSem Model.Schema Model.Params Model.Transcode Proofs.ParamsProofs.
Local Open Scope N_scope.

(* For every schema, every rule whose variables do not write into each other's fields, every
   variable bound to a singular field path fds, every capture, EVERY query (any keys in any order
   and multiplicity, either spelling, also keys naming fds, its parents or a oneof sibling), EVERY
   body (any codec result, whole message or body field, compressed or not), and whatever the float /
   well-known-type / codec / compressor libraries return: if the request is served at all, the
   handler's message has at and under fds exactly the image of the converted capture. *)
Theorem C07_path_wins :
  forall (ofloat : bool -> bytes -> option N) (owkt : wkt -> bool -> bytes -> option subtree)
         (unmarshal : nat -> nat -> bytes -> option subtree) (inflate : bytes -> option bytes)
         sch r rq M i fds c,
  vars_independent r ->
  nth_error (r_vars r) i = Some fds -> fds <> [] -> singular_last fds ->
  nth_error (q_caps rq) i = Some c ->
  decode_request ofloat owkt unmarshal inflate sch r rq = Ok M ->
  exists v, parse_param ofloat owkt sch fds c = Ok v /\
    forall rel, lookup (steps_path fds ++ rel) M = lookup rel (field_image (snd (last_step fds)) v).
Proof. exact path_wins. Qed.
Print Assumptions C07_path_wins.

(* the same, for params.set alone: the last write to a field that later parameters do not touch
   is what the message holds -- for any earlier parameters *)
Theorem C07_last_write_wins : forall pre fds v post M M' rel,
  fds <> [] -> singular_last fds ->
  (forall p, In p post -> untouched (fst p) (steps_path fds) = true) ->
  params_set (pre ++ (fds, v) :: post) M = Ok M' ->
  lookup (steps_path fds ++ rel) M' = lookup rel (field_image (snd (last_step fds)) v).
Proof. exact params_set_wins. Qed.
Print Assumptions C07_last_write_wins.

Definition bs (l : bytes) : bytes := l.
Definition ex_inner : list field :=
  [ mkField 1 (bs [116;97;103]) (bs [116;97;103]) KString Singular None false;           (* tag *)
    mkField 2 (bs [97]) (bs [97]) KString Singular (Some 0%nat) true;                     (* oneof: a *)
    mkField 3 (bs [98]) (bs [98]) KInt32 Singular (Some 0%nat) true ].                    (* oneof: b *)
Definition ex_root : list field :=
  [ mkField 1 (bs [110;97;109;101]) (bs [110;97;109;101]) KString Singular None false;  (* name *)
    mkField 2 (bs [115;117;98]) (bs [115;117;98]) (KMessage 1) Singular None true;       (* sub *)
    mkField 3 (bs [105;100]) (bs [105;100]) KInt32 Singular None false;                   (* id *)
    mkField 4 (bs [115;117;98;115]) (bs [115;117;98;115]) (KMessage 1) Repeated None false ].
Definition ex_sch := mkSchema [mkMsg WNone ex_root; mkMsg WNone ex_inner] [].
Definition fd (n : N) l := nth (N.to_nat n) l (mkField 0 [] [] KBool Singular None false).
Definition v_name : list step := [(ex_root, fd 0 ex_root)].
Definition v_sub_b : list step := [(ex_root, fd 1 ex_root); (ex_inner, fd 2 ex_inner)].
Definition ex_rule := mkRule 0 [v_name; v_sub_b] BStar.
Definition no_float (_ : bool) (_ : bytes) : option N := None.
Definition no_wkt (_ : wkt) (_ : bool) (_ : bytes) : option subtree := None.
(* the body says name="body", sub.a="x" (the other member of the oneof), id=5 *)
Definition ex_body : subtree :=
  [([1], ELeaf (SStr (bs [98;111;100;121]))); ([2], EPresent); ([2;2], ELeaf (SStr (bs [120]))); ([3], ELeaf (SInt 5))].
Definition ex_unmarshal (_ _ : nat) (_ : bytes) : option subtree := Some ex_body.
Definition ex_req := mkReq [bs [99;97;112]; bs [52;50]]                                    (* "cap", "42" *)
  [(bs [115;117;98;46;98], [bs [55]]); (bs [110;97;109;101], [bs [113]; bs [114]]); (bs [115;117;98;46;97], [bs [121]])]
  (Some []) (Some 0%nat) false.                 (* ?sub.b=7&name=q&name=r&sub.a=y *)

Example ex_rule_independent : vars_independent ex_rule.
Proof. apply vars_indep_b_ok. vm_compute. reflexivity. Qed.

Example ex_served :
  exists M, decode_request no_float no_wkt ex_unmarshal (fun b => Some b) ex_sch ex_rule ex_req = Ok M /\
    lookup [1] M = Some (ELeaf (SStr (bs [99;97;112]))) /\           (* name = "cap", not "body", "q" or "r" *)
    lookup [2;3] M = Some (ELeaf (SInt 42)) /\                        (* sub.b = 42, not 7 *)
    lookup [2;2] M = None /\                                          (* the oneof sibling from body and query is gone *)
    lookup [3] M = Some (ELeaf (SInt 5)).                             (* the rest of the body is kept *)
Proof. eexists. vm_compute. repeat split; reflexivity. Qed.

(* the order of the slice is what decides: with the path parameter first (the order before the fix)
   the query value is what the handler gets *)
Example ex_order_matters :
  let p := (v_name, PScalar (SStr (bs [99]))) in let q := (v_name, PScalar (SStr (bs [113]))) in
  (exists M, params_set [q; p] [] = Ok M /\ lookup [1] M = Some (ELeaf (SStr (bs [99])))) /\
  (exists M, params_set [p; q] [] = Ok M /\ lookup [1] M = Some (ELeaf (SStr (bs [113])))).
Proof. split; eexists; vm_compute; split; reflexivity. Qed.

(* a key that walks through a repeated field is InvalidArgument (T3 as repaired) *)
Example ex_walk_through_list :
  set_walk [(ex_root, fd 3 ex_root); (ex_inner, fd 0 ex_inner)] [] (PScalar (SStr [])) [] = Err EInvalid.
Proof. reflexivity. Qed.

(* the path-bound field of a ROUTED request (Proofs/BoundFieldProofs.v) *)
From Larking Require Import Base.B64 Model.Lexer Model.Trie Model.Match Spec.Grammar Spec.Route Spec.Json3
  Proofs.LexerProofs Proofs.MatchProofs Proofs.TrieProofs Proofs.RoutingProofs Proofs.ParamsConvProofs Proofs.BoundFieldProofs.

(* C07, joined to the router.  The routed binding read as a rule of the request decoder (request
   type rm, the variables resolved, ANY body selector) and the request with the routed captures, ANY
   query and ANY body: if it is served, the handler's message has at every named variable's field
   the image of the converted capture, under the same two conditions (singular last field; the
   earlier variables of the template do not write into it). *)
Theorem C07_routed_path_wins :
  forall (ofloat : bool -> bytes -> option N) (owkt : wkt -> bool -> bytes -> option subtree)
         (sch : schema) (req : str -> option nat) (isLetter isNumber : N -> bool),
  Sane isLetter isNumber ->
  forall (unmarshal : nat -> nat -> bytes -> option subtree) (inflate : bytes -> option bytes)
         okconv L root verb p m caps,
  TrieProofs.Inv isLetter isNumber (resolves_of sch req) L root ->
  Match.route okconv isLetter isNumber root verb p = Ok (m, caps) ->
  forall rm, req (m_id m) = Some rm ->
  exists vs, vars_steps sch rm (m_vars m) = Some vs /\ length vs = length (rev caps) /\
  forall bd query body codec gz M,
    decode_request ofloat owkt unmarshal inflate sch (mkRule rm vs bd) (mkReq (rev caps) query body codec gz) = Ok M ->
    forall i ns c, nth_error (m_vars m) i = Some ns -> ns <> [] -> nth_error (rev caps) i = Some c ->
    exists fds v,
      field_path sch (req_fields sch rm) ns = Some fds /\ nth_error vs i = Some fds /\ fds <> [] /\
      parse_param ofloat owkt sch fds c = Ok v /\
      ((exact_kind (f_kind (snd (last_step fds))) = true \/ f_kind (snd (last_step fds)) = KBytes) ->
         json3_text sch (f_kind (snd (last_step fds))) v c) /\
      (singular_last fds -> earlier_leave sch rm (m_vars m) i fds ->
         forall rel, Schema.lookup (steps_path fds ++ rel) M = Schema.lookup rel (field_image (snd (last_step fds)) v)).
Proof. exact bound_fields_with_query_and_body. Qed.
Print Assumptions C07_routed_path_wins.
